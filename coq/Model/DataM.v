(** * The data-level monad into which tools/data_translate.py translates the bodies of the DATA-TOUCHING functions of the
      crate (gen/DataFns.v): [next*], [next_chunk*], [_push], [_push_slice], [_extract_*], the public wrappers and the
      closures they pass around.  It extends the checked-arithmetic monad of Model/KernelM.v (the iterator's local state,
      publications) with the buffer's cells, the caller's source slice and destination, the ledger of owned values and the
      supply of clone identities.  [None] = undefined behaviour or a panic (out-of-bounds pointer arithmetic, a slice that
      leaves the allocation, unchecked overflow, [clone_from_slice] on different lengths, remainder by zero). *)
From Coq Require Import List Arith NArith Bool Lia.
Import ListNotations.
Require Import MRB.Base.ListAux MRB.Model.Types MRB.Model.Seq MRB.Model.KernelM.

(** places an item can live in: a cell of the buffer, an element of the caller's source slice, of the caller's destination *)
Inductive loc := LBuf (i : nat) | LSrc (i : nat) | LDst (i : nat).
(** [RBufV len]: a slice of the DOUBLE MAPPING of the vmem build - addresses [0, 2*len) of which [a] and [a + len] are the same cell *)
Inductive region := RBuf | RSrc | RDst | RBufV (len : nat).
(** a raw slice: region, first element, number of elements *)
Record sl := mkSl { s_reg : region; s_off : nat; s_len : nat }.

Record dst := mkD {
  d_l : lst;               (* local index / remembered availability *)
  d_slots : list cell;     (* the buffer's cells *)
  d_pubs : list nat;       (* values stored through set_atomic_index, in order *)
  d_evs : list lev;        (* ledger of owned values *)
  d_nid : N;               (* identity of the next clone *)
  d_out : list cell        (* the caller's destination ([dst]) *)
}.

Record denv := mkDE {
  dn_E : env;              (* successor's published index, buffer length *)
  dn_avail : M nat;        (* the iterator's own [_available] (translated kernel) *)
  dn_owned : bool;         (* owned items (ledger on) *)
  dn_src : list cell       (* the caller's source slice *)
}.

Definition DM (A : Type) := dst -> option (A * dst).
Definition dret {A} (x : A) : DM A := fun d => Some (x, d).
Definition dbind {A B} (m : DM A) (k : A -> DM B) : DM B :=
  fun d => match m d with Some (x, d') => k x d' | None => None end.
Declare Scope dm_scope.
Delimit Scope dm_scope with dm.
Notation "x <~ m ;; k" := (dbind m (fun x => k)) (at level 61, m at next level, right associativity) : dm_scope.
Notation "m ;;~ k" := (dbind m (fun _ => k)) (at level 61, right associativity) : dm_scope.
Open Scope dm_scope.

Definition dfail {A} : DM A := fun _ => None.

(** a kernel runs on the local state; what it publishes is appended *)
Definition lift {A} (m : M A) : DM A :=
  fun d => match m (d_l d) [] with
           | Some (x, l', p') => Some (x, mkD l' (d_slots d) (d_pubs d ++ p') (d_evs d) (d_nid d) (d_out d))
           | None => None
           end.

Definition set_slots_d sl d := mkD (d_l d) sl (d_pubs d) (d_evs d) (d_nid d) (d_out d).
Definition set_out_d o d := mkD (d_l d) (d_slots d) (d_pubs d) (d_evs d) (d_nid d) o.

Definition emit (E : denv) (l : list lev) : DM unit :=
  fun d => Some (tt, mkD (d_l d) (d_slots d) (d_pubs d) (d_evs d ++ (if dn_owned E then l else [])) (d_nid d) (d_out d)).

(** [Option::then]-style helpers *)
Definition then_ {A} (b : bool) (m : DM A) : DM (option A) :=
  if b then (x <~ m ;; dret (Some x)) else dret None.

Inductive result (A B : Type) := Ok (a : A) | Err (b : B).
Arguments Ok {A B}. Arguments Err {A B}.

(** ** memory *)
(** the cells the iterator HOLDS: [l_cached] cells from its local index on, cyclically - what an Acquire load of the successor's index
    has shown to be its own and what it has not yet published away.  A buffer cell outside them belongs to a neighbouring stage
    (or will, as soon as the index is published): touching it is a data race waiting to happen, whatever a sequential run shows.
    Reads and writes of buffer cells are DEFINED only inside this window - so every theorem that says a translated function runs
    ([= Some ..]) also says that it touches nothing before the availability check has covered it and nothing after [advance]. *)
Definition in_window (d : dst) (i : nat) : bool :=
  (if l_index (d_l d) <=? i then i - l_index (d_l d) else i + length (d_slots d) - l_index (d_l d)) <? l_cached (d_l d).

Definition rd (E : denv) (p : loc) : DM cell :=
  fun d => match p with
           | LBuf i => if (i <? length (d_slots d)) && in_window d i then Some (nth i (d_slots d) 0%N, d) else None
           | LSrc i => if i <? length (dn_src E) then Some (nth i (dn_src E) 0%N, d) else None
           | LDst i => if i <? length (d_out d) then Some (nth i (d_out d) 0%N, d) else None
           end.

(** raw store (no ledger) *)
Definition st (p : loc) (v : cell) : DM unit :=
  fun d => match p with
           | LBuf i => if (i <? length (d_slots d)) && in_window d i then Some (tt, set_slots_d (upd i v (d_slots d)) d) else None
           | LSrc _ => None                                   (* the source slice is shared: never written *)
           | LDst i => if i <? length (d_out d) then Some (tt, set_out_d (upd i v (d_out d)) d) else None
           end.

Definition is_buf (p : loc) : bool := match p with LBuf _ => true | _ => false end.

(** a store into a place, in one of the ledger modes of the Model ([SAssign]: [*p = v] drops the old value first, an all-zero one
    included; [SWrite]: [p.write(v)] does not look at the old contents; [SInit]: drop it unless it is all-zero).  The destination
    belongs to the caller: what is dropped there is the caller's. *)
Definition store_mode (E : denv) (m : smode) (p : loc) (v : cell) : DM unit :=
  old <~ rd E p ;; emit E (if is_buf p then store_ev m old else []) ;;~ st p v.
(** [*p = v] *)
Definition assign (E : denv) (p : loc) (v : cell) : DM unit := store_mode E SAssign p v.
(** [p.write(v)] *)
Definition write_ (E : denv) (p : loc) (v : cell) : DM unit := store_mode E SWrite p v.
(** the same with a value MOVED in by the caller: the buffer takes ownership *)
Definition assign_move (E : denv) (p : loc) (v : cell) : DM unit := assign E p v ;;~ emit E [LTake v].
Definition write_move (E : denv) (p : loc) (v : cell) : DM unit := write_ E p v ;;~ emit E [LTake v].

Definition check_zeroed (E : denv) (p : loc) : DM bool := v <~ rd E p ;; dret (isz v).

(** [Clone::clone]: a fresh identity for an owned item, the same number for a plain one *)
Definition clone_ (E : denv) (v : cell) : DM cell :=
  fun d => Some (if dn_owned E then d_nid d else v,
                 mkD (d_l d) (d_slots d) (d_pubs d)
                     (d_evs d ++ (if dn_owned E then [if isz v then LZeroRead else LMake (d_nid d)] else []))
                     (if dn_owned E then N.succ (d_nid d) else d_nid d) (d_out d)).

(** [UnsafeSyncCell::take_inner / inner_duplicate / inner_ref(_mut) / as_mut_ptr] on the cell [inner()[i]] (bounds-checked index) *)
Definition cell_at (i : nat) : DM loc :=
  fun d => if i <? length (d_slots d) then Some (LBuf i, d) else None.
Definition take_inner (E : denv) (p : loc) : DM cell :=
  v <~ rd E p ;; st p 0%N ;;~ emit E [if isz v then LZeroRead else LGive v] ;;~ dret v.
Definition inner_duplicate (E : denv) (p : loc) : DM cell :=
  v <~ rd E p ;; emit E [if isz v then LZeroRead else LDup v] ;;~ dret v.
Definition inner_ref (p : loc) : DM loc := dret p.

(** ** raw slices *)
Definition buf_ptr : DM loc := dret (LBuf 0).
(** [ptr.add(i)]: stays inside the allocation or one past its end *)
Definition ptr_add (p : loc) (i : nat) : DM loc :=
  fun d => match p with
           | LBuf o => if o + i <=? length (d_slots d) then Some (LBuf (o + i), d) else None
           | _ => None
           end.
(** [slice::from_raw_parts(_mut)(p, n)]: the whole range lies inside the allocation *)
Definition raw_parts (p : loc) (n : nat) : DM sl :=
  fun d => match p with
           | LBuf o => if o + n <=? length (d_slots d) then Some (mkSl RBuf o n, d) else None
           | _ => None
           end.
(** the vmem build: [slice::from_raw_parts(_mut)(p, n)] over the double mapping - the range lies inside the [2*len] mapped cells *)
Definition raw_parts_v (p : loc) (n : nat) : DM sl :=
  fun d => match p with
           | LBuf o => if o + n <=? 2 * length (d_slots d) then Some (mkSl (RBufV (length (d_slots d))) o n, d) else None
           | _ => None
           end.
Definition empty_sl : sl := mkSl RBuf 0 0.
Definition src_sl (E : denv) : sl := mkSl RSrc 0 (length (dn_src E)).
Definition out_sl : DM sl := fun d => Some (mkSl RDst 0 (length (d_out d)), d).

Definition sl_at (s : sl) (j : nat) : loc :=
  match s_reg s with
  | RBuf => LBuf (s_off s + j) | RSrc => LSrc (s_off s + j) | RDst => LDst (s_off s + j)
  | RBufV len => LBuf ((s_off s + j) mod len)
  end.
(** [s.get_unchecked(..mid)] / [s.get_unchecked(mid..)] (also [_mut]): undefined outside the slice *)
Definition sl_prefix (s : sl) (mid : nat) : DM sl :=
  if mid <=? s_len s then dret (mkSl (s_reg s) (s_off s) mid) else dfail.
Definition sl_suffix (s : sl) (mid : nat) : DM sl :=
  if mid <=? s_len s then dret (mkSl (s_reg s) (s_off s + mid) (s_len s - mid)) else dfail.

Fixpoint for_n (n : nat) (j : nat) (body : nat -> DM unit) : DM unit :=
  match n with 0 => dret tt | S n' => body j ;;~ for_n n' (S j) body end.

(** [for (x, y) in a.iter_mut().zip(b) { body }] *)
Definition for_zip (a b : sl) (body : loc -> loc -> DM unit) : DM unit :=
  for_n (Nat.min (s_len a) (s_len b)) 0 (fun j => body (sl_at a j) (sl_at b j)).

(** [copy_from_slice_unchecked(src, dst)] = [ptr::copy_nonoverlapping(src, dst, src.len())]: a bitwise copy, no ledger *)
Definition copy_from_slice_unchecked (E : denv) (src dst_ : sl) : DM unit :=
  if s_len src <=? s_len dst_
  then for_n (s_len src) 0 (fun j => v <~ rd E (sl_at src j) ;; st (sl_at dst_ j) v)
  else dfail.

(** [dst.clone_from_slice(src)]: panics on different lengths; element-wise [clone_from] *)
Definition clone_from_slice (E : denv) (dst_ src : sl) : DM unit :=
  if s_len src =? s_len dst_
  then for_n (s_len src) 0 (fun j => v <~ rd E (sl_at src j) ;; c <~ clone_ E v ;; assign E (sl_at dst_ j) c)
  else dfail.

(** [while c { b }] with at most [fuel] rounds: answers [true] when the condition became false (the loop ended), [false] when the
    fuel ran out with the loop still spinning *)
Fixpoint while_ (fuel : nat) (c : DM bool) (b : DM unit) : DM bool :=
  match fuel with
  | 0 => dret false
  | S f => x <~ c ;; if x then (b ;;~ while_ f c b) else dret true
  end.
(** still inside a busy-wait loop when the fuel ran out: not a return *)
Definition spinning {A} : DM (option A) := dret None.

(** [a % b]: panics on a zero divisor *)
Definition umod (a b : nat) : DM nat := match b with 0 => dfail | _ => dret (a mod b) end.

Definition drun {A} (m : DM A) (d : dst) : option (A * dst) := m d.
