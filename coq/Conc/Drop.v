(** * C07: the drop protocol (after fix F5): one read-modify-write on the liveness word decides the last iterator.

    Threads = the iterators being dropped.  Each performs its last access to the buffer, then clears its bit with
    [fetch_and] and, if the word became zero, frees the buffer.  Views are "whose last access do I know about";
    an acquiring RMW joins the view carried by the word (release sequence), a releasing one adds its own.
    The state space is finite: the theorems are proved for every schedule (every list of thread choices, of any
    length) by computing the set of reachable states, checking that it is closed under every step, and checking
    every state in it - with [vm_compute] inside the kernel, lifted to every schedule by [closed_good]. *)
From Coq Require Import List Arith Bool.
Import ListNotations.

Inductive th := TP | TW | TC.
Record b3 := mkB3 { bP : bool; bW : bool; bC : bool }.
Record dthr := mkDT { dpc : nat; dview : b3 }.
Record dcfg := mkDC { word : b3; wview : b3; tp : dthr; tw : dthr; tc : dthr; frees : nat; uaf : bool }.

Scheme Equality for b3.
Scheme Equality for dthr.
Scheme Equality for dcfg.

Definition get (k : th) (b : b3) : bool := match k with TP => bP b | TW => bW b | TC => bC b end.
Definition set (k : th) (x : bool) (b : b3) : b3 :=
  match k with TP => mkB3 x (bW b) (bC b) | TW => mkB3 (bP b) x (bC b) | TC => mkB3 (bP b) (bW b) x end.
Definition join (a b : b3) : b3 := mkB3 (bP a || bP b) (bW a || bW b) (bC a || bC b).
Definition none (b : b3) : bool := negb (bP b) && negb (bW b) && negb (bC b).
Definition covers (present v : b3) : bool :=
  implb (bP present) (bP v) && implb (bW present) (bW v) && implb (bC present) (bC v).
Definition thr_of (k : th) (c : dcfg) : dthr := match k with TP => tp c | TW => tw c | TC => tc c end.
Definition set_thr (k : th) (t : dthr) (c : dcfg) : dcfg :=
  match k with
  | TP => mkDC (word c) (wview c) t (tw c) (tc c) (frees c) (uaf c)
  | TW => mkDC (word c) (wview c) (tp c) t (tc c) (frees c) (uaf c)
  | TC => mkDC (word c) (wview c) (tp c) (tw c) t (frees c) (uaf c)
  end.

Section D.
Variables (acq rel : bool) (present : b3).

Definition dstep (c : dcfg) (k : th) : dcfg :=
  if negb (get k present) then c else
  let t := thr_of k c in
  match dpc t with
  | 0 => (* the iterator's last access to the buffer *)
    let c1 := set_thr k (mkDT 1 (set k true (dview t))) c in
    mkDC (word c1) (wview c1) (tp c1) (tw c1) (tc c1) (frees c1) (uaf c1 || (0 <? frees c))
  | 1 => (* fetch_and(!bit): reads the last value; acquire joins the carried view; release adds its own *)
    let v1 := if acq then join (dview t) (wview c) else dview t in
    let w' := set k false (word c) in
    let wv' := if rel then join (wview c) v1 else wview c in
    let c1 := set_thr k (mkDT (if none w' then 2 else 3) v1) c in
    mkDC w' wv' (tp c1) (tw c1) (tc c1) (frees c1) (uaf c1)
  | 2 => (* the last one frees the buffer: an access to everything *)
    let c1 := set_thr k (mkDT 3 (dview t)) c in
    mkDC (word c1) (wview c1) (tp c1) (tw c1) (tc c1) (S (frees c)) (uaf c1 || negb (covers present (dview t)))
  | _ => c
  end.

Definition dinit : dcfg :=
  let t0 := mkDT 0 (mkB3 false false false) in
  mkDC present (mkB3 false false false) t0 t0 t0 0 false.

Definition dexec (script : list th) : dcfg := fold_left dstep script dinit.

Definition all_done (c : dcfg) : bool :=
  implb (bP present) (dpc (tp c) =? 3) && implb (bW present) (dpc (tw c) =? 3) && implb (bC present) (dpc (tc c) =? 3).

(** freed at most once, never used after being freed, the free is ordered after every iterator's last access,
    and once every iterator is gone it has been freed exactly once *)
Definition good (c : dcfg) : bool :=
  (frees c <=? 1) && negb (uaf c) && implb (all_done c) (frees c =? 1).

Fixpoint mem (c : dcfg) (l : list dcfg) : bool :=
  match l with [] => false | x :: r => dcfg_beq c x || mem c r end.
Fixpoint add_all (xs l : list dcfg) : list dcfg :=
  match xs with [] => l | x :: r => if mem x l then add_all r l else add_all r (l ++ [x]) end.
Fixpoint closure (n : nat) (l : list dcfg) : list dcfg :=
  match n with 0 => l | S n' => closure n' (add_all (flat_map (fun c => [dstep c TP; dstep c TW; dstep c TC]) l) l) end.

Definition states : list dcfg := closure 12 [dinit].
Definition closed (l : list dcfg) : bool :=
  mem dinit l && forallb (fun c => mem (dstep c TP) l && mem (dstep c TW) l && mem (dstep c TC) l) l.

Lemma mem_In c l : mem c l = true -> In c l.
Proof.
  induction l as [|x r IH]; simpl; [discriminate|]. intros H. apply orb_prop in H as [H|H].
  - left. symmetry. apply internal_dcfg_dec_bl. exact H.
  - right. auto.
Qed.

Lemma closed_reach l : closed l = true -> forall script c, In c l -> In (fold_left dstep script c) l.
Proof.
  intros H. apply andb_prop in H as [_ H]. rewrite forallb_forall in H.
  induction script as [|k r IH]; intros c Hc; simpl; auto.
  apply IH. specialize (H c Hc). apply andb_prop in H as [H H3]. apply andb_prop in H as [H1 H2].
  destruct k; apply mem_In; auto.
Qed.

(* Stated for an arbitrary list: with [states] in its place the kernel would evaluate [closure 12 [dinit]]
   while it compares [closed states] with the [_ && _] that [andb_prop] expects. *)
Lemma closed_good l : closed l = true -> forallb good l = true -> forall script, good (dexec script) = true.
Proof.
  intros C G script. pose proof (andb_prop _ _ C) as [I _].
  rewrite forallb_forall in G. apply G. apply closed_reach; auto. apply mem_In; auto.
Qed.

Theorem all_good : closed states = true -> forallb good states = true -> forall script, good (dexec script) = true.
Proof. exact (closed_good states). Qed.
End D.

(** three iterators (split_mut) and two (split), acquire-release RMW: every schedule is good *)
Theorem drop3_good : forall script, good (mkB3 true true true) (dexec true true (mkB3 true true true) script) = true.
Proof. apply all_good; vm_compute; reflexivity. Qed.
Theorem drop2_good : forall script, good (mkB3 true false true) (dexec true true (mkB3 true false true) script) = true.
Proof. apply all_good; vm_compute; reflexivity. Qed.
Print Assumptions drop3_good.

(** non-vacuity of the detector: with a relaxed RMW the last iterator frees the buffer without having synchronised
    with the other's last access *)
Example relaxed_rmw_is_bad :
  uaf (dexec false false (mkB3 true false true) [TP; TC; TP; TC; TC]) = true.
Proof. vm_compute. reflexivity. Qed.

(** the protocol of the pinned tree (store own flag, then load the other flags), two iterators, sequentially
    consistent interleaving store/store/load/load: both free (double free); finding F5, repaired by 7af37e8 *)
Record pcfg := mkPC { fp : bool; fc : bool; pcP : nat; pcC : nat; seenP : bool; seenC : bool; pfrees : nat }.
Definition pinit := mkPC true true 0 0 true true 0.
Definition pstepP (c : pcfg) : pcfg :=
  match pcP c with
  | 0 => mkPC false (fc c) 1 (pcC c) (seenP c) (seenC c) (pfrees c)
  | 1 => mkPC (fp c) (fc c) 2 (pcC c) (fc c) (seenC c) (pfrees c)
  | 2 => mkPC (fp c) (fc c) 3 (pcC c) (seenP c) (seenC c) (if seenP c then pfrees c else S (pfrees c))
  | _ => c end.
Definition pstepC (c : pcfg) : pcfg :=
  match pcC c with
  | 0 => mkPC (fp c) false (pcP c) 1 (seenP c) (seenC c) (pfrees c)
  | 1 => mkPC (fp c) (fc c) (pcP c) 2 (seenP c) (fp c) (pfrees c)
  | 2 => mkPC (fp c) (fc c) (pcP c) 3 (seenP c) (seenC c) (if seenC c then pfrees c else S (pfrees c))
  | _ => c end.
Definition prun (s : list bool) := fold_left (fun (c : pcfg) (b : bool) => if b then pstepP c else pstepC c) s pinit.
Theorem pinned_protocol_refuted : exists s, pfrees (prun s) = 2.
Proof. exists [true; false; true; false; true; false]. vm_compute. reflexivity. Qed.
