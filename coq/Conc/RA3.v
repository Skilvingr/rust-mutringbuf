(* Scratch prototype: three-stage pipeline (producer -> worker -> consumer) under the
   release/acquire view machine. Threads P (push one), W (edit one in place), C (pop one).
   Detector: last write epoch (with writer id) and consumer read clock per slot. *)
From Coq Require Import List Arith Bool.
Import ListNotations.
Require Import MRB.Conc.RA.   (* wadd dist pavail, mod lemmas, upd *)

Inductive tid := TP | TW | TC.
Record view3 := mkV3 { vpi3 : nat; vwi3 : nat; vci3 : nat; kp3 : nat; kw3 : nat; kc3 : nat; wP3 : nat; wW3 : nat; wC3 : nat }.
Definition vjoin3 (a b : view3) : view3 :=
  mkV3 (max (vpi3 a) (vpi3 b)) (max (vwi3 a) (vwi3 b)) (max (vci3 a) (vci3 b))
       (max (kp3 a) (kp3 b)) (max (kw3 a) (kw3 b)) (max (kc3 a) (kc3 b))
       (max (wP3 a) (wP3 b)) (max (wW3 a) (wW3 b)) (max (wC3 a) (wC3 b)).
Record msg3 := mkM3 { mval3 : nat; mabs3 : nat; mview3 : view3 }.
Record meta3 := mkMeta3 { wt : tid; wpos3 : nat; wclk3 : nat; rpos3 : nat; rclk3 : nat }.
Record thr3 := mkT3 { ix3 : nat; ca3 : nat; V3 : view3; pc3 : nat; pos3 : nat }.
Record cfg3 := mkC3 { Mpi3 : list msg3; Mwi3 : list msg3; Mci3 : list msg3; metas3 : list meta3;
                      P3 : thr3; W3 : thr3; C3 : thr3; race3 : bool }.
Definition dmsg3 := mkM3 0 0 (mkV3 0 0 0 0 0 0 0 0 0).
Definition dmeta3 := mkMeta3 TP 0 0 0 0.

(* is the last write of [m] covered by view [v] when accessed by thread [me]? *)
Definition wcov (me : tid) (m : meta3) (v : view3) : bool :=
  match wt m, me with
  | TP, TP => true | TW, TW => true | TC, _ => true
  | TP, _ => wclk3 m <=? kp3 v
  | TW, _ => wclk3 m <=? kw3 v
  end.

Section M3.
Variable len : nat.

Definition stepP (j : nat) (c : cfg3) : cfg3 :=
  let t := P3 c in
  match pc3 t with
  | 0 =>
    if 1 <=? ca3 t then (mkC3 (Mpi3 c) (Mwi3 c) (Mci3 c) (metas3 c) (mkT3 (ix3 t) (ca3 t) (V3 t) 2 (pos3 t)) (W3 c) (C3 c) (race3 c))
    else
      let i := pick (vci3 (V3 t)) (length (Mci3 c)) j in
      let m := nth i (Mci3 c) dmsg3 in
      let v0 := V3 t in
      let v1 := vjoin3 (mkV3 (vpi3 v0) (vwi3 v0) i (kp3 v0) (kw3 v0) (kc3 v0) (wP3 v0) (wW3 v0) (wC3 v0)) (mview3 m) in
      let a := pavail len (ix3 t) (mval3 m) in
      (mkC3 (Mpi3 c) (Mwi3 c) (Mci3 c) (metas3 c) (mkT3 (ix3 t) a v1 (if 1 <=? a then 2 else 0) (pos3 t)) (W3 c) (C3 c) (race3 c))
  | 2 =>
    let mt := nth (ix3 t) (metas3 c) dmeta3 in
    let bad := negb (wcov TP mt (V3 t)) || negb (rclk3 mt <=? kc3 (V3 t)) in
    (mkC3 (Mpi3 c) (Mwi3 c) (Mci3 c) (upd (ix3 t) (mkMeta3 TP (pos3 t) (kp3 (V3 t)) (rpos3 mt) (rclk3 mt)) (metas3 c)) (mkT3 (ix3 t) (ca3 t) (V3 t) 3 (pos3 t)) (W3 c) (C3 c) (race3 c || bad))
  | 3 =>
    let ix' := wadd len (ix3 t) 1 in
    let v0 := V3 t in
    let v1 := (mkV3 (length (Mpi3 c)) (vwi3 v0) (vci3 v0) (kp3 v0) (kw3 v0) (kc3 v0) (S (pos3 t)) (wW3 v0) (wC3 v0)) in
    let m := mkM3 ix' (S (pos3 t)) v1 in
    (mkC3 (Mpi3 c ++ [m]) (Mwi3 c) (Mci3 c) (metas3 c) (mkT3 ix' (ca3 t - 1) (mkV3 (vpi3 v1) (vwi3 v1) (vci3 v1) (S (kp3 v1)) (kw3 v1) (kc3 v1) (wP3 v1) (wW3 v1) (wC3 v1)) 0 (S (pos3 t))) (W3 c) (C3 c) (race3 c))
  | _ => c
  end.

Definition stepW (j : nat) (c : cfg3) : cfg3 :=
  let t := W3 c in
  match pc3 t with
  | 0 =>
    if 1 <=? ca3 t then (mkC3 (Mpi3 c) (Mwi3 c) (Mci3 c) (metas3 c) (P3 c) (mkT3 (ix3 t) (ca3 t) (V3 t) 2 (pos3 t)) (C3 c) (race3 c))
    else
      let i := pick (vpi3 (V3 t)) (length (Mpi3 c)) j in
      let m := nth i (Mpi3 c) dmsg3 in
      let v0 := V3 t in
      let v1 := vjoin3 (mkV3 i (vwi3 v0) (vci3 v0) (kp3 v0) (kw3 v0) (kc3 v0) (wP3 v0) (wW3 v0) (wC3 v0)) (mview3 m) in
      let a := dist len (ix3 t) (mval3 m) in
      (mkC3 (Mpi3 c) (Mwi3 c) (Mci3 c) (metas3 c) (P3 c) (mkT3 (ix3 t) a v1 (if 1 <=? a then 2 else 0) (pos3 t)) (C3 c) (race3 c))
  | 2 =>
    let mt := nth (ix3 t) (metas3 c) dmeta3 in
    let bad := negb (wcov TW mt (V3 t)) || negb (rclk3 mt <=? kc3 (V3 t)) in
    (mkC3 (Mpi3 c) (Mwi3 c) (Mci3 c) (upd (ix3 t) (mkMeta3 TW (pos3 t) (kw3 (V3 t)) (rpos3 mt) (rclk3 mt)) (metas3 c)) (P3 c) (mkT3 (ix3 t) (ca3 t) (V3 t) 3 (pos3 t)) (C3 c) (race3 c || bad))
  | 3 =>
    let ix' := wadd len (ix3 t) 1 in
    let v0 := V3 t in
    let v1 := (mkV3 (vpi3 v0) (length (Mwi3 c)) (vci3 v0) (kp3 v0) (kw3 v0) (kc3 v0) (wP3 v0) (S (pos3 t)) (wC3 v0)) in
    let m := mkM3 ix' (S (pos3 t)) v1 in
    (mkC3 (Mpi3 c) (Mwi3 c ++ [m]) (Mci3 c) (metas3 c) (P3 c) (mkT3 ix' (ca3 t - 1) (mkV3 (vpi3 v1) (vwi3 v1) (vci3 v1) (kp3 v1) (S (kw3 v1)) (kc3 v1) (wP3 v1) (wW3 v1) (wC3 v1)) 0 (S (pos3 t))) (C3 c) (race3 c))
  | _ => c
  end.

Definition stepC (j : nat) (c : cfg3) : cfg3 :=
  let t := C3 c in
  match pc3 t with
  | 0 =>
    if 1 <=? ca3 t then (mkC3 (Mpi3 c) (Mwi3 c) (Mci3 c) (metas3 c) (P3 c) (W3 c) (mkT3 (ix3 t) (ca3 t) (V3 t) 2 (pos3 t)) (race3 c))
    else
      let i := pick (vwi3 (V3 t)) (length (Mwi3 c)) j in
      let m := nth i (Mwi3 c) dmsg3 in
      let v0 := V3 t in
      let v1 := vjoin3 (mkV3 (vpi3 v0) i (vci3 v0) (kp3 v0) (kw3 v0) (kc3 v0) (wP3 v0) (wW3 v0) (wC3 v0)) (mview3 m) in
      let a := dist len (ix3 t) (mval3 m) in
      (mkC3 (Mpi3 c) (Mwi3 c) (Mci3 c) (metas3 c) (P3 c) (W3 c) (mkT3 (ix3 t) a v1 (if 1 <=? a then 2 else 0) (pos3 t)) (race3 c))
  | 2 =>
    let mt := nth (ix3 t) (metas3 c) dmeta3 in
    let bad := negb (wcov TC mt (V3 t)) in
    (mkC3 (Mpi3 c) (Mwi3 c) (Mci3 c) (upd (ix3 t) (mkMeta3 (wt mt) (wpos3 mt) (wclk3 mt) (pos3 t) (kc3 (V3 t))) (metas3 c)) (P3 c) (W3 c) (mkT3 (ix3 t) (ca3 t) (V3 t) 3 (pos3 t)) (race3 c || bad))
  | 3 =>
    let ix' := wadd len (ix3 t) 1 in
    let v0 := V3 t in
    let v1 := (mkV3 (vpi3 v0) (vwi3 v0) (length (Mci3 c)) (kp3 v0) (kw3 v0) (kc3 v0) (wP3 v0) (wW3 v0) (S (pos3 t))) in
    let m := mkM3 ix' (S (pos3 t)) v1 in
    (mkC3 (Mpi3 c) (Mwi3 c) (Mci3 c ++ [m]) (metas3 c) (P3 c) (W3 c) (mkT3 ix' (ca3 t - 1) (mkV3 (vpi3 v1) (vwi3 v1) (vci3 v1) (kp3 v1) (kw3 v1) (S (kc3 v1)) (wP3 v1) (wW3 v1) (wC3 v1)) 0 (S (pos3 t))) (race3 c))
  | _ => c
  end.

Definition step3 (c : cfg3) (s : tid * nat) : cfg3 :=
  match fst s with TP => stepP (snd s) c | TW => stepW (snd s) c | TC => stepC (snd s) c end.
Definition exec3 (c : cfg3) (script : list (tid * nat)) : cfg3 := fold_left step3 script c.

Definition vinit (kp kw kc : nat) := mkV3 0 0 0 kp kw kc len len len.
Definition init3 : cfg3 :=
  mkC3 [mkM3 0 len (vinit 0 0 0)] [mkM3 0 len (vinit 0 0 0)] [mkM3 0 len (vinit 0 0 0)]
       (map (fun k => mkMeta3 TC k 0 k 0) (seq 0 len))
       (mkT3 0 0 (vinit 1 0 0) 0 len) (mkT3 0 0 (vinit 0 1 0) 0 len) (mkT3 0 0 (vinit 0 0 1) 0 len) false.
End M3.
