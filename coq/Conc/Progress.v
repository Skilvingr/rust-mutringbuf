(** * Progress of the release/acquire view machines RAn.v (P, C) and RA3n.v (P, W, C): C10 on the machines.

    RAnproof.v / RA3nproof.v show that no execution races.  Here: every execution makes progress, for every [len > 0],
    every interleaving, every admissible (stale) read.
    (A) Wait-freedom.  A step of another thread leaves a thread's record untouched, and an operation - the step at pc 0
        that starts it included - returns (granted and published, or refused) within [len + 1] own steps in ANY
        continuation: the others may run, be suspended for ever, or be gone.
    (B) A fresh look is exact.  If the message a load reads is the latest one - the read choice selects it (always so in
        a sequentially consistent run) or the thread's view has already reached it - the refreshed availability is the
        true one (for the producer: one slot kept free) and the request is granted iff it fits.  A stale read never
        over-estimates.
    (C) Drains.  From every reachable configuration the script [drain] (every thread finishes its operation, then each
        follower repeatedly takes a fresh look and handles one item) ends with every pc 0 and everything published
        consumed.
    All five threads move their control part (pc, ca, pos, cnt, off) by one function [knext] of what a load returns.
    (A), (B) and the loop of (C) are theorems about an abstract machine of such threads ([kmachine]); that the loads of
    the two machines never exceed the truth and are exact when fresh is proved once, for a thread that follows an
    index ([follows]). *)
From Coq Require Import List Arith Lia Bool.
Import ListNotations.
Require MRB.Conc.RAnproof.
Require MRB.Conc.RA3nproof.


Record kctl := mkCtl { kpc : nat; kca : nat; kpos : nat; kcnt : nat; koff : nat }.

(* [a]: the availability a load would compute; [n0]: the requested count *)
Definition knext (a n0 : nat) (k : kctl) : kctl :=
  match kpc k with
  | 0 => let n := Nat.max 1 n0 in
         if n <=? kca k then mkCtl 2 (kca k) (kpos k) n 0
         else mkCtl (if n <=? a then 2 else 0) a (kpos k) n 0
  | 2 => mkCtl (if kcnt k <=? koff k + 1 then 3 else 2) (kca k) (kpos k) (kcnt k) (koff k + 1)
  | 3 => mkCtl 0 (kca k - kcnt k) (kpos k + kcnt k) (kcnt k) 0
  | _ => k
  end.

(* own steps still needed to be back at pc 0 *)
Definition krem (k : kctl) : nat :=
  match kpc k with 2 => kcnt k - koff k + 1 | 3 => 1 | _ => 0 end.

(* [pc_ok] of RAnproof.v / [pc_okn] of RA3nproof.v *)
Definition kok (k : kctl) : Prop :=
  (kpc k = 0 /\ koff k = 0) \/
  (kpc k = 2 /\ koff k < kcnt k /\ kcnt k <= kca k) \/
  (kpc k = 3 /\ koff k = kcnt k /\ kcnt k <= kca k).

Lemma knext_rem a n0 k : kok k -> kpc k <> 0 -> krem (knext a n0 k) + 1 = krem k.
Proof.
  intros [[H0 _]|[(H2&Ho&Hc)|(H3&Ho&Hc)]] Hne; [congruence| |].
  - unfold knext, krem. rewrite H2.
    destruct (kcnt k <=? koff k + 1) eqn:E; [apply Nat.leb_le in E | apply Nat.leb_gt in E];
      cbn [kpc kcnt koff]; lia.
  - unfold knext, krem. rewrite H3. cbn [kpc]. reflexivity.
Qed.

Lemma krem_zero k : kok k -> krem k = 0 -> kpc k = 0.
Proof.
  intros [[H0 _]|[(H2&Ho&Hc)|(H3&Ho&Hc)]]; auto; unfold krem; [rewrite H2 | rewrite H3]; lia.
Qed.

Lemma krem_pc0 k : kpc k = 0 -> krem k = 0.
Proof. intros H; unfold krem; rewrite H; reflexivity. Qed.

(* a request of 1 item: check (fast, or a load returning [a1 >= 1]), one access, publish *)
Lemma kpop1 a1 a2 a3 n2 n3 k :
  kpc k = 0 -> (kca k < 1 -> 1 <= a1) ->
  let k' := knext a3 n3 (knext a2 n2 (knext a1 1 k)) in kpc k' = 0 /\ kpos k' = kpos k + 1.
Proof.
  destruct k as [p a q n o]; cbn [kpc kca kpos]; intros -> H.
  assert (E1 : exists a', knext a1 1 (mkCtl 0 a q n o) = mkCtl 2 a' q 1 0).
  { unfold knext; cbn [kpc kca kpos kcnt koff]. change (Nat.max 1 1) with 1.
    destruct (Nat.leb_spec 1 a); [eexists; reflexivity|].
    destruct (Nat.leb_spec 1 a1); [eexists; reflexivity | lia]. }
  destruct E1 as [a' ->]. split; reflexivity.
Qed.

(* [t]: the true availability *)
Lemma knext_look a n0 k t (fresh : Prop) :
  kpc k = 0 -> kca k < Nat.max 1 n0 -> a <= t /\ (fresh -> a = t) ->
  let k' := knext a n0 k in
  kca k' <= t /\
  (fresh -> kca k' = t /\
            (kpc k' = 2 /\ kcnt k' = Nat.max 1 n0 /\ Nat.max 1 n0 <= t \/ kpc k' = 0 /\ t < Nat.max 1 n0)).
Proof.
  intros H0 Hca [Hle Hex]. unfold knext. rewrite H0. cbv zeta.
  destruct (Nat.leb_spec (Nat.max 1 n0) (kca k)); [lia|]. cbn [kca kpc kcnt].
  split; [exact Hle|]. intros Hf. rewrite (Hex Hf). destruct (Nat.leb_spec (Nat.max 1 n0) t); auto.
Qed.

Fixpoint count {A} (f : A -> bool) (l : list A) : nat :=
  match l with [] => 0 | x :: l' => (if f x then 1 else 0) + count f l' end.

Lemma count_app {A} (f : A -> bool) l1 l2 : count f (l1 ++ l2) = count f l1 + count f l2.
Proof. induction l1 as [|x l1 IH]; cbn [count app]; [reflexivity | rewrite IH; lia]. Qed.

Lemma count_repeat_false {A} (f : A -> bool) x n : f x = false -> count f (repeat x n) = 0.
Proof. intros H; induction n as [|n IH]; cbn [count repeat]; [reflexivity | rewrite H, IH; reflexivity]. Qed.

Lemma count_repeat_true {A} (f : A -> bool) x n : f x = true -> count f (repeat x n) = n.
Proof. intros H; induction n as [|n IH]; cbn [count repeat]; [reflexivity | rewrite H, IH; reflexivity]. Qed.


Section Generic.
Variable tid : Type.
Variable teq : tid -> tid -> bool.
Hypothesis teq_spec : forall a b, teq a b = true <-> a = b.

Lemma teq_false a b : a <> b -> teq a b = false.
Proof. intros H. destruct (teq a b) eqn:E; auto. apply teq_spec in E. contradiction. Qed.
Lemma teq_refl a : teq a a = true.
Proof. apply teq_spec; reflexivity. Qed.
End Generic.

(* An entry names a thread, a read choice and a requested count.  Thread [t] follows an index of [m_len t c] messages,
   of which it has seen [m_vi t c]; a load with read choice [j] computes the availability [m_load t j c]; [m_true t c]
   is the true one. *)
Record kmachine := mkMachine {
  m_cfg : Type; m_entry : Type; m_tid : Type;
  m_teq : m_tid -> m_tid -> bool;
  m_who : m_entry -> m_tid;
  m_choice : m_entry -> nat;
  m_req : m_entry -> nat;
  m_step : m_cfg -> m_entry -> m_cfg;
  m_ctl : m_tid -> m_cfg -> kctl;
  m_inv : m_cfg -> Prop;
  m_cap : nat;
  m_len : m_tid -> m_cfg -> nat;
  m_vi : m_tid -> m_cfg -> nat;
  m_load : m_tid -> nat -> m_cfg -> nat;
  m_true : m_tid -> m_cfg -> nat;
  m_teq_spec : forall a b, m_teq a b = true <-> a = b;
  m_inv_step : forall c e, m_inv c -> m_inv (m_step c e);
  m_ok : forall c t, m_inv c -> kok (m_ctl t c);
  m_le_cap : forall c t, m_inv c -> kca (m_ctl t c) + 1 <= m_cap;
  m_own : forall c e,
    m_ctl (m_who e) (m_step c e) = knext (m_load (m_who e) (m_choice e) c) (m_req e) (m_ctl (m_who e) c);
  m_other : forall c e t, m_who e <> t -> m_ctl t (m_step c e) = m_ctl t c;
  m_len_own : forall c e, m_len (m_who e) (m_step c e) = m_len (m_who e) c;
  m_load_spec : forall c t j, m_inv c ->
    m_load t j c <= m_true t c /\ (m_len t c - 1 <= Nat.max j (m_vi t c) -> m_load t j c = m_true t c) }.
Arguments m_teq {_}. Arguments m_who {_}. Arguments m_choice {_}. Arguments m_req {_}. Arguments m_step {_}.
Arguments m_ctl {_}. Arguments m_inv {_}. Arguments m_len {_}. Arguments m_vi {_}. Arguments m_load {_}.
Arguments m_true {_}.

Section Machine.
Variable m : kmachine.

Definition run (c : m_cfg m) (s : list (m_entry m)) : m_cfg m := fold_left m_step s c.
Definition gown (t : m_tid m) (s : list (m_entry m)) : nat := count (fun e => m_teq (m_who e) t) s.

Lemma run_app c s1 s2 : run c (s1 ++ s2) = run (run c s1) s2.
Proof. apply fold_left_app. Qed.

Lemma Inv_run s : forall c, m_inv c -> m_inv (run c s).
Proof. exact (RA.fold_left_inv _ _ (m_inv_step m) s). Qed.

Lemma tid_dec (a b : m_tid m) : a = b \/ a <> b.
Proof.
  destruct (m_teq a b) eqn:E; [left; apply (m_teq_spec m), E | right; intros ->].
  rewrite (teq_refl _ _ (m_teq_spec m)) in E. discriminate.
Qed.

Lemma gown_own e s : gown (m_who e) (e :: s) = 1 + gown (m_who e) s.
Proof. unfold gown; cbn [count]. rewrite (teq_refl _ _ (m_teq_spec m)). reflexivity. Qed.

Lemma gown_other t e s : m_who e <> t -> gown t (e :: s) = gown t s.
Proof. intros H. unfold gown; cbn [count]. rewrite (teq_false _ _ (m_teq_spec m) _ _ H). reflexivity. Qed.

Lemma G_other_run t s : forall c, gown t s = 0 -> m_ctl t (run c s) = m_ctl t c.
Proof.
  induction s as [|e s IH]; intros c H; [reflexivity|].
  destruct (tid_dec (m_who e) t) as [<-|Hw]; [rewrite gown_own in H; lia|]. rewrite (gown_other t e s Hw) in H.
  cbn [run fold_left]. fold (run (m_step c e) s). rewrite (IH _ H). apply m_other, Hw.
Qed.

Lemma G_own_dec (c : m_cfg m) e :
  m_inv c -> kpc (m_ctl (m_who e) c) <> 0 -> krem (m_ctl (m_who e) (m_step c e)) + 1 = krem (m_ctl (m_who e) c).
Proof. intros I Hne. rewrite m_own. apply knext_rem; [apply m_ok, I | exact Hne]. Qed.

Lemma G_rem_le (c : m_cfg m) t : m_inv c -> krem (m_ctl t c) <= m_cap m.
Proof.
  intros I. pose proof (m_le_cap m c t I).
  destruct (m_ok m c t I) as [[H0 _]|[(H2&Ho&Hc)|(H3&Ho&Hc)]]; unfold krem; [rewrite H0 | rewrite H2 | rewrite H3]; lia.
Qed.

(* a step uses up one of the own steps [t] needs and one of those the script has, or none of either: this equation
   carries both inductions below *)
Lemma G_step t e s (c : m_cfg m) : m_inv c -> krem (m_ctl t c) <> 0 ->
  krem (m_ctl t (m_step c e)) + gown t (e :: s) = krem (m_ctl t c) + gown t s.
Proof.
  intros I Hr. destruct (tid_dec (m_who e) t) as [<-|Hw].
  - pose proof (G_own_dec c e I (fun H0 => Hr (krem_pc0 _ H0))). rewrite gown_own. lia.
  - rewrite (m_other m c e t Hw), (gown_other t e s Hw). reflexivity.
Qed.

Theorem G_returns t s : forall c, m_inv c -> krem (m_ctl t c) <= gown t s ->
  exists s1 s2, s = s1 ++ s2 /\ gown t s1 = krem (m_ctl t c) /\ kpc (m_ctl t (run c s1)) = 0.
Proof.
  induction s as [|e s IH]; intros c I H.
  - exists [], []. change (gown t []) with 0 in *. RA.splits; auto; [lia|].
    apply (krem_zero (m_ctl t c)); [apply m_ok, I | lia].
  - destruct (Nat.eq_dec (krem (m_ctl t c)) 0) as [Er|Er].
    + exists [], (e :: s). RA.splits; auto. apply krem_zero; [apply m_ok, I | exact Er].
    + pose proof (G_step t e s c I Er).
      destruct (IH _ (m_inv_step m c e I)) as (s1 & s2 & -> & Ho & Hp); [lia|].
      pose proof (G_step t e s1 c I Er). exists (e :: s1), s2. RA.splits; auto. lia.
Qed.

Theorem G_operation t s : forall c, m_inv c -> m_cap m + 1 <= gown t s ->
  exists s1 s2, s = s1 ++ s2 /\ 1 <= gown t s1 /\ gown t s1 <= m_cap m + 1 /\ kpc (m_ctl t (run c s1)) = 0.
Proof.
  induction s as [|e s IH]; intros c I H; [change (gown t []) with 0 in H; lia|].
  pose proof (m_inv_step m c e I) as I1.
  destruct (Nat.eq_dec (krem (m_ctl t c)) 0) as [Er|Er].
  - destruct (tid_dec (m_who e) t) as [<-|Hw].
    + (* the operation starts with this step *)
      rewrite gown_own in H. pose proof (G_rem_le _ (m_who e) I1).
      destruct (G_returns (m_who e) s _ I1) as (s1 & s2 & -> & Ho & Hp); [lia|].
      exists (e :: s1), s2. rewrite gown_own. RA.splits; auto; lia.
    + rewrite (gown_other t e s Hw) in H.
      destruct (IH _ I1 H) as (s1 & s2 & -> & H1 & H2 & Hp).
      exists (e :: s1), s2. rewrite (gown_other t e s1 Hw). RA.splits; auto.
  - pose proof (G_rem_le c t I).
    destruct (G_returns t (e :: s) c I) as (s1 & s2 & E & Ho & Hp); [lia|].
    exists s1, s2. RA.splits; auto; lia.
Qed.

Lemma G_finish e : forall r c, m_inv c -> krem (m_ctl (m_who e) c) = r ->
  kpc (m_ctl (m_who e) (run c (repeat e r))) = 0.
Proof.
  induction r as [|r IH]; intros c I Hr; cbn [repeat run fold_left].
  - apply krem_zero; [apply m_ok, I | exact Hr].
  - apply IH; [apply m_inv_step, I|].
    assert (Hne : kpc (m_ctl (m_who e) c) <> 0) by (intros H0; apply krem_pc0 in H0; lia).
    pose proof (G_own_dec c e I Hne). lia.
Qed.

Lemma G_alone e t r c : m_who e <> t -> m_ctl t (run c (repeat e r)) = m_ctl t c.
Proof. intros H. apply G_other_run, count_repeat_false, (teq_false _ _ (m_teq_spec m)), H. Qed.

Theorem G_look (c : m_cfg m) e :
  m_inv c -> kpc (m_ctl (m_who e) c) = 0 -> kca (m_ctl (m_who e) c) < Nat.max 1 (m_req e) ->
  let k' := m_ctl (m_who e) (m_step c e) in let t := m_true (m_who e) c in
  kca k' <= t /\
  (m_len (m_who e) c - 1 <= Nat.max (m_choice e) (m_vi (m_who e) c) ->
   kca k' = t /\
   (kpc k' = 2 /\ kcnt k' = Nat.max 1 (m_req e) /\ Nat.max 1 (m_req e) <= t \/ kpc k' = 0 /\ t < Nat.max 1 (m_req e))).
Proof. intros I H0 Hca. rewrite m_own. apply knext_look; auto using m_load_spec. Qed.

(* [e] asks for one item; its read choice stays fresh as long as the leader does not move *)
Section CatchUp.
Variables (e : m_entry m) (L : m_tid m).
Hypothesis HL : m_who e <> L.
Hypothesis Hreq : m_req e = 1.
Hypothesis Htrue : forall c, m_true (m_who e) c = kpos (m_ctl L c) - kpos (m_ctl (m_who e) c).

Lemma G_pop c : m_inv c -> m_len (m_who e) c - 1 <= m_choice e ->
  kpc (m_ctl (m_who e) c) = 0 -> kpos (m_ctl (m_who e) c) < kpos (m_ctl L c) ->
  let c' := run c [e; e; e] in
  m_inv c' /\ m_len (m_who e) c' = m_len (m_who e) c /\ (forall t, m_who e <> t -> m_ctl t c' = m_ctl t c) /\
  kpc (m_ctl (m_who e) c') = 0 /\ kpos (m_ctl (m_who e) c') = kpos (m_ctl (m_who e) c) + 1.
Proof.
  intros I G H0 Hlt. cbn [run fold_left].
  split; [auto using m_inv_step|]. split; [rewrite !m_len_own; reflexivity|].
  split; [intros t Ht; rewrite !(m_other m) by exact Ht; reflexivity|].
  (* the first step takes a fresh look, which sees at least one item *)
  rewrite !(m_own m _ e), Hreq. destruct (m_load_spec m c (m_who e) (m_choice e) I) as [_ Ex].
  rewrite Ex, Htrue by lia. apply kpop1; [exact H0 | lia].
Qed.

Lemma G_catch_up : forall d c, m_inv c -> m_len (m_who e) c - 1 <= m_choice e ->
  kpc (m_ctl (m_who e) c) = 0 -> kpos (m_ctl (m_who e) c) + d = kpos (m_ctl L c) ->
  let c' := run c (concat (repeat [e; e; e] d)) in
  m_inv c' /\ kpc (m_ctl (m_who e) c') = 0 /\ kpos (m_ctl (m_who e) c') = kpos (m_ctl L c) /\
  (forall t, m_who e <> t -> m_ctl t c' = m_ctl t c).
Proof.
  induction d as [|d IH]; intros c I G H0 Hd; cbn [repeat concat].
  - change (run c []) with c. RA.splits; auto. lia.
  - rewrite run_app.
    destruct (G_pop c I G H0) as (I1 & G1 & F1 & H1 & Hp); [lia|].
    destruct (IH _ I1) as (I2 & H2 & Hp2 & F2); [rewrite G1; exact G | exact H1 | rewrite (F1 L HL); lia|].
    RA.splits; auto.
    + rewrite Hp2, (F1 L HL). reflexivity.
    + intros t Ht. rewrite (F2 t Ht). apply F1, Ht.
Qed.
End CatchUp.
End Machine.

(** [M] is the message list of the followed index ([ab]: absolute position, [vl]: value), [vi] the follower's view
    of it, [lead] the followed thread's position.  The follower may advance up to [s] beyond what it has seen:
    [s = 0] for a consumer or worker, [s = len - 1] for the producer, which follows the consumer one lap ahead
    with one slot kept free. *)
Section Follower.
Variables (A : Type) (d : A) (ab vl : A -> nat) (len : nat) (M : list A) (vi ix pos ca lead : nat).

Record follows (s : nat) : Prop := mkFollows {
  f_vi : vi < length M;
  f_sorted : forall i j, i <= j -> j < length M -> ab (nth i M d) <= ab (nth j M d);
  f_val : forall i, i < length M -> vl (nth i M d) = ab (nth i M d) mod len;
  f_ix : ix = pos mod len;
  f_ca : ca + pos <= s + ab (nth vi M d);
  f_last : ab (nth (length M - 1) M d) = lead }.

Lemma follow_pick s j : follows s ->
  let i := RA.pick vi (length M) j in
  vl (nth i M d) = ab (nth i M d) mod len /\
  ab (nth vi M d) <= ab (nth i M d) /\ ab (nth i M d) <= lead /\
  (length M - 1 <= Nat.max j vi -> ab (nth i M d) = lead).
Proof.
  intros [Hvi Hs Hv _ _ <-] i.
  assert (Hi : vi <= i /\ i < length M) by (unfold i, RA.pick; lia).
  RA.splits.
  - apply Hv, Hi.
  - apply Hs; apply Hi.
  - apply Hs; lia.
  - intros Hj. unfold i, RA.pick. rewrite Nat.min_r by exact Hj. reflexivity.
Qed.

Lemma follow_dist j : 0 < len -> follows 0 -> lead < pos + len ->
  let a := RA.dist len ix (vl (nth (RA.pick vi (length M) j) M d)) in
  ab (nth vi M d) - pos <= a /\ a <= lead - pos /\ (length M - 1 <= Nat.max j vi -> a = lead - pos).
Proof.
  intros Hlen F Hroom. destruct (follow_pick 0 j F) as (Ev & H1 & H2 & H3).
  destruct F as [_ _ _ -> Hca _]. cbv zeta. rewrite Ev, RA.dist_mod by lia.
  RA.splits; [apply Nat.sub_le_mono_r, H1 | apply Nat.sub_le_mono_r, H2 | intros Hj; rewrite (H3 Hj); reflexivity].
Qed.

(* on its own, so that [lia] meets these subtractions with three hypotheses around them *)
Lemma pavail_ahead p c : 0 < len -> c <= p -> p < c + len -> RA.pavail len (p mod len) (c mod len) = c + len - 1 - p.
Proof. intros. rewrite RA.pavail_mod by lia. lia. Qed.

Lemma follow_pavail j : 0 < len -> follows (len - 1) -> lead <= pos ->
  let a := RA.pavail len ix (vl (nth (RA.pick vi (length M) j) M d)) in
  ab (nth vi M d) + len - 1 - pos <= a /\ a <= lead + len - 1 - pos /\
  (length M - 1 <= Nat.max j vi -> a = lead + len - 1 - pos).
Proof.
  intros Hlen F Hroom. destruct (follow_pick _ j F) as (Ev & H1 & H2 & H3).
  destruct F as [_ _ _ -> Hca _]. cbv zeta. rewrite Ev, pavail_ahead by lia.
  RA.splits; [do 2 apply Nat.sub_le_mono_r; apply Nat.add_le_mono_r, H1
          | do 2 apply Nat.sub_le_mono_r; apply Nat.add_le_mono_r, H2 | intros Hj; rewrite (H3 Hj); reflexivity].
Qed.
End Follower.
Arguments follow_dist {A d ab vl len M vi ix pos ca lead}.
Arguments follow_pavail {A d ab vl len M vi ix pos ca lead}.

Module Two.
Import MRB.Conc.RA MRB.Conc.RAproof MRB.Conc.RAn MRB.Conc.RAnproof.

Definition entry := (bool * nat * nat)%type.
Definition who (e : entry) : bool := fst (fst e).               (* true = P, false = C *)
Definition thr (b : bool) (c : cfg_n) : thr_n := if b then P c else C c.
Definition ctl (t : thr_n) : kctl := mkCtl (pc t) (ca t) (pos t) (cnt t) (off t).

Definition own_steps (b : bool) (s : list entry) : nat := count (fun e => Bool.eqb (who e) b) s.
Definition remaining (t : thr_n) : nat :=
  match pc t with 2 => cnt t - off t + 1 | 3 => 1 | _ => 0 end.

(* the availability a load with read choice j would compute *)
Definition loadP (len j : nat) (c : cfg_n) : nat :=
  pavail len (ix (P c)) (mval (nth (pick (vci (V (P c))) (length (Mci c)) j) (Mci c) dmsg)).
Definition loadC (len j : nat) (c : cfg_n) : nat :=
  dist len (ix (C c)) (mval (nth (pick (vpi (V (C c))) (length (Mpi c)) j) (Mpi c) dmsg)).

(* thread b's [m_len], [m_vi], [m_load], [m_true] *)
Definition idx_len (b : bool) (c : cfg_n) : nat := length (if b then Mci c else Mpi c).
Definition idx_seen (b : bool) (c : cfg_n) : nat := if b then vci (V (P c)) else vpi (V (C c)).
Definition load (len : nat) (b : bool) (j : nat) (c : cfg_n) : nat := if b then loadP len j c else loadC len j c.
Definition avail (len : nat) (b : bool) (c : cfg_n) : nat :=
  if b then pos (C c) + len - 1 - pos (P c) else pos (P c) - pos (C c).

Lemma stepP_spec len j n0 c : let c' := stepP_n len j n0 c in
  ctl (P c') = knext (loadP len j c) n0 (ctl (P c)) /\ C c' = C c /\ Mci c' = Mci c.
Proof.
  unfold stepP_n, stepP_a, knext. cbn [kpc kca ctl].
  destruct (pc (P c)) as [|[|[|[|p]]]]; [destruct (Nat.max 1 n0 <=? ca (P c))| | | |]; RA.splits; reflexivity.
Qed.
Lemma stepC_spec len j n0 c : let c' := stepC_n len j n0 c in
  ctl (C c') = knext (loadC len j c) n0 (ctl (C c)) /\ P c' = P c /\ Mpi c' = Mpi c.
Proof.
  unfold stepC_n, stepC_a, knext. cbn [kpc kca ctl].
  destruct (pc (C c)) as [|[|[|[|p]]]]; [destruct (Nat.max 1 n0 <=? ca (C c))| | | |]; RA.splits; reflexivity.
Qed.

Lemma own_step len c e :
  ctl (thr (who e) (step_n len c e)) = knext (load len (who e) (snd (fst e)) c) (snd e) (ctl (thr (who e) c)).
Proof. destruct e as [[[|] j] n0]; [apply stepP_spec | apply stepC_spec]. Qed.

Lemma len_own len c e : idx_len (who e) (step_n len c e) = idx_len (who e) c.
Proof. destruct e as [[[|] j] n0]; unfold idx_len; cbn [who fst]; f_equal; [apply stepP_spec | apply stepC_spec]. Qed.

(* no operation waits: a step of the other thread leaves the whole thread record as it is *)
Theorem RAn_other_step len c e b : who e <> b -> thr b (step_n len c e) = thr b c.
Proof.
  destruct e as [[[|] j] n0]; destruct b; cbn [who fst thr]; intros H; try congruence.
  - apply stepP_spec.
  - apply stepC_spec.
Qed.

Definition eP : entry := (true, 0, 0).     (* inside an operation the read choice and the count are ignored *)
Definition eC : entry := (false, 0, 0).
(* check, read the slot, publish: one item, read choice J *)
Definition pop3 (J : nat) : list entry := [(false, J, 1); (false, J, 1); (false, J, 1)].

Definition drain (len : nat) (c : cfg_n) : list entry :=
  let s1 := repeat eP (remaining (P c)) in
  let c1 := exec_n len c s1 in
  let s2 := repeat eC (remaining (C c1)) in
  let c2 := exec_n len c1 s2 in
  s1 ++ s2 ++ concat (repeat (pop3 (length (Mpi c2))) (pos (P c2) - pos (C c2))).

Section WithInv.
Variable len : nat.
Hypothesis Hlen : 0 < len.

Lemma followC c : InvN len c ->
  follows msg dmsg mabs mval len (Mpi c) (vpi (V (C c))) (ix (C c)) (pos (C c)) (ca (C c)) (pos (P c)) 0.
Proof.
  intros I. split; [apply (i_vC len c I) | exact (i_spi len c I) | | exact (i_ixC len c I) | exact (i_caC len c I)
                    | exact (i_lpi len c I)].
  intros i Hi. exact (proj1 (Forall_nth_msg _ _ i (i_mpi len c I) Hi)).
Qed.
Lemma followP c : InvN len c ->
  follows msg dmsg mabs mval len (Mci c) (vci (V (P c))) (ix (P c)) (pos (P c)) (ca (P c)) (pos (C c)) (len - 1).
Proof.
  intros I. split; [apply (i_vP len c I) | exact (i_sci len c I) | | exact (i_ixP len c I) | | exact (i_lci len c I)].
  - intros i Hi. exact (proj1 (Forall_nth_msg _ _ i (i_mci len c I) Hi)).
  - pose proof (i_caP len c I) as H. unfold seenPn in H. lia.
Qed.

Lemma load_spec c b j : InvN len c ->
  load len b j c <= avail len b c /\ (idx_len b c - 1 <= Nat.max j (idx_seen b c) -> load len b j c = avail len b c).
Proof.
  intros I. pose proof (behindn len c I).
  destruct b; [apply (follow_pavail j Hlen (followP c I)) | apply (follow_dist j Hlen (followC c I))]; lia.
Qed.

Lemma inv_ok c b : InvN len c -> kok (ctl (thr b c)).
Proof. intros I. destruct b; [exact (i_pcP len c I) | exact (i_pcC len c I)]. Qed.

Lemma inv_cap c b : InvN len c -> kca (ctl (thr b c)) + 1 <= len.
Proof. intros I. pose proof (behindn len c I). destruct b; cbn [thr ctl kca]; lia. Qed.

Definition machine : kmachine := {|
  m_cfg := cfg_n; m_entry := entry; m_tid := bool; m_teq := Bool.eqb; m_teq_spec := eqb_true_iff;
  m_who := who; m_choice := fun e => snd (fst e); m_req := snd;
  m_step := step_n len; m_own := own_step len; m_len_own := len_own len;
  m_ctl := fun b c => ctl (thr b c); m_other := fun c e b H => f_equal ctl (RAn_other_step len c e b H);
  m_inv := InvN len; m_inv_step := step_invn len Hlen; m_ok := inv_ok; m_cap := len; m_le_cap := inv_cap;
  m_len := idx_len; m_vi := idx_seen; m_load := load len; m_true := avail len; m_load_spec := load_spec |}.

(* [run machine] is [exec_n len], [gown machine] is [own_steps] and [krem (ctl t)] is [remaining t] by computation: read
   in these words, the statements about [exec_n] below are the [G_*] of [machine] *)

Lemma finish c e : InvN len c -> pc (thr (who e) (exec_n len c (repeat e (remaining (thr (who e) c))))) = 0.
Proof. intros I. exact (G_finish machine e _ c I eq_refl). Qed.

Lemma inv_exec s c : InvN len c -> InvN len (exec_n len c s).
Proof. exact (Inv_run machine s c). Qed.

Lemma exec_app c s1 s2 : exec_n len c (s1 ++ s2) = exec_n len (exec_n len c s1) s2.
Proof. apply fold_left_app. Qed.

Theorem drains_from c : InvN len c ->
  let c' := exec_n len c (drain len c) in
  pc (P c') = 0 /\ pc (C c') = 0 /\ pos (C c') = pos (P c').
Proof.
  intros I. unfold drain.
  set (s1 := repeat eP (remaining (P c))). set (c1 := exec_n len c s1).
  set (s2 := repeat eC (remaining (C c1))). set (c2 := exec_n len c1 s2).
  cbv zeta. rewrite !exec_app. fold c1. fold c2.
  assert (I1 : InvN len c1) by exact (inv_exec s1 c I).
  assert (I2 : InvN len c2) by exact (inv_exec s2 c1 I1).
  assert (HP1 : pc (P c1) = 0) by exact (finish c eP I).
  assert (HC2 : pc (C c2) = 0) by exact (finish c1 eC I1).
  assert (E2 : ctl (P c2) = ctl (P c1)) by exact (G_alone machine eC true _ c1 ltac:(discriminate)).
  pose proof (behindn len c2 I2).
  (* the consumer catches up with the producer *)
  destruct (G_catch_up machine (false, length (Mpi c2), 1) true ltac:(discriminate) eq_refl (fun _ => eq_refl)
              (pos (P c2) - pos (C c2)) c2 I2 ltac:(cbn; lia) HC2 ltac:(cbn; lia)) as (_ & H3 & Hp & F).
  pose proof (F true ltac:(discriminate)) as E3.
  split; [exact (eq_trans (f_equal kpc (eq_trans E3 E2)) HP1)|]. split; [exact H3|].
  exact (eq_trans Hp (eq_sym (f_equal kpos E3))).
Qed.
End WithInv.

Theorem RAn_returns : forall len, 0 < len -> forall script s b,
  let c := exec_n len (init_n len) script in
  remaining (thr b c) <= own_steps b s ->
  exists s1 s2, s = s1 ++ s2 /\ own_steps b s1 = remaining (thr b c) /\ pc (thr b (exec_n len c s1)) = 0.
Proof. intros len Hlen script s b c. exact (G_returns (machine len Hlen) b s c (exec_invn len Hlen script)). Qed.

Theorem RAn_remaining_bounded : forall len, 0 < len -> forall script b,
  remaining (thr b (exec_n len (init_n len) script)) <= len.
Proof. intros len Hlen script b. exact (G_rem_le (machine len Hlen) _ b (exec_invn len Hlen script)). Qed.

Theorem RAn_operation_bounded : forall len, 0 < len -> forall script s b,
  let c := exec_n len (init_n len) script in
  len + 1 <= own_steps b s ->
  exists s1 s2, s = s1 ++ s2 /\ 1 <= own_steps b s1 /\ own_steps b s1 <= len + 1 /\
                pc (thr b (exec_n len c s1)) = 0.
Proof. intros len Hlen script s b c. exact (G_operation (machine len Hlen) b s c (exec_invn len Hlen script)). Qed.

Theorem RAn_own_step : forall len, 0 < len -> forall script e,
  let c := exec_n len (init_n len) script in
  pc (thr (who e) c) <> 0 -> remaining (thr (who e) (step_n len c e)) + 1 = remaining (thr (who e) c).
Proof. intros len Hlen script e c. exact (G_own_dec (machine len Hlen) c e (exec_invn len Hlen script)). Qed.

(* the other thread suspended for ever or gone: the thread alone finishes its operation *)
Theorem RAn_returns_alone : forall len, 0 < len -> forall script e,
  let c := exec_n len (init_n len) script in
  pc (thr (who e) (exec_n len c (repeat e (remaining (thr (who e) c))))) = 0.
Proof. intros len Hlen script e c. apply finish; auto. apply exec_invn; auto. Qed.

Theorem RAn_fresh_look_consumer : forall len, 0 < len -> forall script j n0,
  let c := exec_n len (init_n len) script in
  pc (C c) = 0 -> ca (C c) < Nat.max 1 n0 ->
  length (Mpi c) - 1 <= Nat.max j (vpi (V (C c))) ->
  let c' := stepC_n len j n0 c in
  ca (C c') = lastabs (Mpi c) - pos (C c) /\ lastabs (Mpi c) = pos (P c) /\
  (pc (C c') = 2 /\ cnt (C c') = Nat.max 1 n0 /\ Nat.max 1 n0 <= pos (P c) - pos (C c) \/
   pc (C c') = 0 /\ pos (P c) - pos (C c) < Nat.max 1 n0).
Proof.
  intros len Hlen script j n0 c H0 Hca Hj c'. pose proof (exec_invn len Hlen script : InvN len c) as I.
  destruct (G_look (machine len Hlen) c (false, j, n0) I H0 Hca) as [_ K]. destruct (K Hj) as [Ka Kp].
  rewrite (i_lpi len c I). exact (conj Ka (conj eq_refl Kp)).
Qed.

Theorem RAn_fresh_look_producer : forall len, 0 < len -> forall script j n0,
  let c := exec_n len (init_n len) script in
  pc (P c) = 0 -> ca (P c) < Nat.max 1 n0 ->
  length (Mci c) - 1 <= Nat.max j (vci (V (P c))) ->
  let c' := stepP_n len j n0 c in
  ca (P c') = lastabs (Mci c) + len - 1 - pos (P c) /\ lastabs (Mci c) = pos (C c) /\
  (pc (P c') = 2 /\ cnt (P c') = Nat.max 1 n0 /\ Nat.max 1 n0 <= pos (C c) + len - 1 - pos (P c) \/
   pc (P c') = 0 /\ pos (C c) + len - 1 - pos (P c) < Nat.max 1 n0).
Proof.
  intros len Hlen script j n0 c H0 Hca Hj c'. pose proof (exec_invn len Hlen script : InvN len c) as I.
  destruct (G_look (machine len Hlen) c (true, j, n0) I H0 Hca) as [_ K]. destruct (K Hj) as [Ka Kp].
  rewrite (i_lci len c I). exact (conj Ka (conj eq_refl Kp)).
Qed.

Theorem RAn_load_sound : forall len, 0 < len -> forall script j n0,
  let c := exec_n len (init_n len) script in
  (pc (C c) = 0 -> ca (C c) < Nat.max 1 n0 -> ca (C (stepC_n len j n0 c)) <= pos (P c) - pos (C c)) /\
  (pc (P c) = 0 -> ca (P c) < Nat.max 1 n0 -> ca (P (stepP_n len j n0 c)) <= pos (C c) + len - 1 - pos (P c)).
Proof.
  intros len Hlen script j n0 c. pose proof (exec_invn len Hlen script) as I.
  split; intros H0 Hca;
    [apply (G_look (machine len Hlen) c (false, j, n0) I H0 Hca) | apply (G_look (machine len Hlen) c (true, j, n0) I H0 Hca)].
Qed.

Theorem RAn_drains : forall len, 0 < len -> forall script, exists s',
  let c' := exec_n len (init_n len) (script ++ s') in
  pc (P c') = 0 /\ pc (C c') = 0 /\ pos (C c') = pos (P c').
Proof.
  intros len Hlen script. exists (drain len (exec_n len (init_n len) script)).
  cbv zeta. rewrite exec_app. apply drains_from; auto. apply exec_invn; auto.
Qed.

Definition after_push3 := exec_n 4 (init_n 4) [sP 3; sP 3; sP 3; sP 3; sP 3].   (* P has published 3 items *)
(* (B) a stale read (choice 0: the initial message) sees nothing and refuses; a fresh read sees all 3 *)
Example stale_vs_fresh :
  let st := stepC_n 4 0 2 after_push3 in let fr := stepC_n 4 99 2 after_push3 in
  (ca (C st), pc (C st)) = (0, 0) /\ (ca (C fr), pc (C fr)) = (3, 2) /\
  pos (P after_push3) - pos (C after_push3) = 3.
Proof. vm_compute. auto. Qed.
(* once the consumer's view has reached the producer's latest message, even read choice 0 is exact *)
Example synchronised_is_exact :
  let c := exec_n 4 after_push3 [sC 1; sC 1; sC 1; (false, 0, 2)] in (ca (C c), pc (C c)) = (2, 2).
Proof. vm_compute. auto. Qed.
(* (C) both threads in the middle of an operation (P about to publish a 3rd item, C has read 1 of a window of 2
   and has a stale view of the rest): [drain] = P finishes (1 step), C finishes (2 steps), C pops 1 item with
   a fresh look (3 steps); afterwards everything published has been consumed *)
Definition midway := exec_n 4 (init_n 4) [sP 2; sP 2; sP 2; sP 2; (false, 0, 1); sC 2; sC 2; sP 1; sP 1].
Example drain_midway :
  summary midway = (false, (2, 6, 1, 3), (0, 4, 2, 2)) /\
  drain 4 midway = [(true, 0, 0); (false, 0, 0); (false, 0, 0); (false, 3, 1); (false, 3, 1); (false, 3, 1)] /\
  summary (exec_n 4 midway (drain 4 midway)) = (false, (3, 7, 0, 0), (3, 7, 0, 0)).
Proof. vm_compute. auto. Qed.
End Two.

Module Three.
Import MRB.Conc.RA MRB.Conc.RA3 MRB.Conc.RA3proof MRB.Conc.RA3n MRB.Conc.RA3nproof.

Definition entry := (tid * nat * nat)%type.
Definition who (e : entry) : tid := fst (fst e).
Definition thr (t : tid) (c : cfg3n) : thr3n := match t with TP => P3 c | TW => W3 c | TC => C3 c end.
Definition ctl (t : thr3n) : kctl := mkCtl (pc3 t) (ca3 t) (pos3 t) (cnt3 t) (off3 t).
Definition tid_eqb (a b : tid) : bool :=
  match a, b with TP, TP | TW, TW | TC, TC => true | _, _ => false end.

Definition own_steps (t : tid) (s : list entry) : nat := count (fun e => tid_eqb (who e) t) s.
Definition remaining (t : thr3n) : nat :=
  match pc3 t with 2 => cnt3 t - off3 t + 1 | 3 => 1 | _ => 0 end.

(* the availability a load with read choice j would compute: P follows C, W follows P, C follows W *)
Definition loadP (len j : nat) (c : cfg3n) : nat :=
  pavail len (ix3 (P3 c)) (mval3 (nth (pick (vci3 (V3 (P3 c))) (length (Mci3 c)) j) (Mci3 c) dmsg3)).
Definition loadW (len j : nat) (c : cfg3n) : nat :=
  dist len (ix3 (W3 c)) (mval3 (nth (pick (vpi3 (V3 (W3 c))) (length (Mpi3 c)) j) (Mpi3 c) dmsg3)).
Definition loadC (len j : nat) (c : cfg3n) : nat :=
  dist len (ix3 (C3 c)) (mval3 (nth (pick (vwi3 (V3 (C3 c))) (length (Mwi3 c)) j) (Mwi3 c) dmsg3)).

(* thread t's [m_len], [m_vi], [m_load], [m_true] *)
Definition idx_len (t : tid) (c : cfg3n) : nat :=
  length (match t with TP => Mci3 c | TW => Mpi3 c | TC => Mwi3 c end).
Definition idx_seen (t : tid) (c : cfg3n) : nat :=
  match t with TP => vci3 (V3 (P3 c)) | TW => vpi3 (V3 (W3 c)) | TC => vwi3 (V3 (C3 c)) end.
Definition load (len : nat) (t : tid) (j : nat) (c : cfg3n) : nat :=
  match t with TP => loadP len j c | TW => loadW len j c | TC => loadC len j c end.
Definition avail (len : nat) (t : tid) (c : cfg3n) : nat :=
  match t with
  | TP => pos3 (C3 c) + len - 1 - pos3 (P3 c)
  | TW => pos3 (P3 c) - pos3 (W3 c)
  | TC => pos3 (W3 c) - pos3 (C3 c)
  end.

Lemma stepP_spec len j n0 c : let c' := stepP3_n len j n0 c in
  ctl (P3 c') = knext (loadP len j c) n0 (ctl (P3 c)) /\ W3 c' = W3 c /\ C3 c' = C3 c /\ Mci3 c' = Mci3 c.
Proof.
  unfold stepP3_n, stepP3_a, knext. cbn [kpc kca ctl].
  destruct (pc3 (P3 c)) as [|[|[|[|p]]]]; [destruct (Nat.max 1 n0 <=? ca3 (P3 c))| | | |]; RA.splits; reflexivity.
Qed.
Lemma stepW_spec len j n0 c : let c' := stepW3_n len j n0 c in
  ctl (W3 c') = knext (loadW len j c) n0 (ctl (W3 c)) /\ P3 c' = P3 c /\ C3 c' = C3 c /\ Mpi3 c' = Mpi3 c.
Proof.
  unfold stepW3_n, stepW3_a, knext. cbn [kpc kca ctl].
  destruct (pc3 (W3 c)) as [|[|[|[|p]]]]; [destruct (Nat.max 1 n0 <=? ca3 (W3 c))| | | |]; RA.splits; reflexivity.
Qed.
Lemma stepC_spec len j n0 c : let c' := stepC3_n len j n0 c in
  ctl (C3 c') = knext (loadC len j c) n0 (ctl (C3 c)) /\ P3 c' = P3 c /\ W3 c' = W3 c /\ Mwi3 c' = Mwi3 c.
Proof.
  unfold stepC3_n, stepC3_a, knext. cbn [kpc kca ctl].
  destruct (pc3 (C3 c)) as [|[|[|[|p]]]]; [destruct (Nat.max 1 n0 <=? ca3 (C3 c))| | | |]; RA.splits; reflexivity.
Qed.

Lemma own_step len c e :
  ctl (thr (who e) (step3_n len c e)) = knext (load len (who e) (snd (fst e)) c) (snd e) (ctl (thr (who e) c)).
Proof. destruct e as [[[| |] j] n0]; [apply stepP_spec | apply stepW_spec | apply stepC_spec]. Qed.

Lemma len_own len c e : idx_len (who e) (step3_n len c e) = idx_len (who e) c.
Proof.
  destruct e as [[[| |] j] n0]; unfold idx_len; cbn [who fst]; f_equal;
    [apply stepP_spec | apply stepW_spec | apply stepC_spec].
Qed.

(* no operation waits: a step of another thread leaves the whole thread record as it is *)
Theorem RA3n_other_step len c e t : who e <> t -> thr t (step3_n len c e) = thr t c.
Proof.
  destruct e as [[[| |] j] n0]; destruct t; cbn [who fst thr]; intros H; try congruence.
  - apply stepP_spec.
  - apply stepP_spec.
  - apply stepW_spec.
  - apply stepW_spec.
  - apply stepC_spec.
  - apply stepC_spec.
Qed.

Lemma tid_eqb_spec : forall a b : tid, tid_eqb a b = true <-> a = b.
Proof. intros [| |] [| |]; cbn; split; intros H; try reflexivity; try discriminate. Qed.

Definition eP : entry := (TP, 0, 0).     (* inside an operation the read choice and the count are ignored *)
Definition eW : entry := (TW, 0, 0).
Definition eC : entry := (TC, 0, 0).
(* check, access the slot, publish: one item, read choice J *)
Definition op3 (t : tid) (J : nat) : list entry := [(t, J, 1); (t, J, 1); (t, J, 1)].

Definition drain (len : nat) (c : cfg3n) : list entry :=
  let s1 := repeat eP (remaining (P3 c)) in
  let c1 := exec3_n len c s1 in
  let s2 := repeat eW (remaining (W3 c1)) in
  let c2 := exec3_n len c1 s2 in
  let s3 := repeat eC (remaining (C3 c2)) in
  let c3 := exec3_n len c2 s3 in
  let s4 := concat (repeat (op3 TW (length (Mpi3 c3))) (pos3 (P3 c3) - pos3 (W3 c3))) in
  let c4 := exec3_n len c3 s4 in
  let s5 := concat (repeat (op3 TC (length (Mwi3 c4))) (pos3 (W3 c4) - pos3 (C3 c4))) in
  s1 ++ s2 ++ s3 ++ s4 ++ s5.

Section WithInv.
Variable len : nat.
Hypothesis Hlen : 0 < len.

Lemma followW c : Inv3n len c ->
  follows msg3 dmsg3 mabs3 mval3 len (Mpi3 c) (vpi3 (V3 (W3 c))) (ix3 (W3 c)) (pos3 (W3 c)) (ca3 (W3 c))
          (pos3 (P3 c)) 0.
Proof.
  intros I. split; [apply (k_vW len c I) | exact (k_spi len c I) | | exact (k_ixW len c I) | exact (k_caW len c I)
                    | exact (k_lpi len c I)].
  intros i Hi. exact (proj1 (Forall_nth_msg3 _ _ i (k_mpi len c I) Hi)).
Qed.
Lemma followC c : Inv3n len c ->
  follows msg3 dmsg3 mabs3 mval3 len (Mwi3 c) (vwi3 (V3 (C3 c))) (ix3 (C3 c)) (pos3 (C3 c)) (ca3 (C3 c))
          (pos3 (W3 c)) 0.
Proof.
  intros I. split; [apply (k_vC len c I) | exact (k_swi len c I) | | exact (k_ixC len c I) | exact (k_caC len c I)
                    | exact (k_lwi len c I)].
  intros i Hi. exact (proj1 (Forall_nth_msg3 _ _ i (k_mwi len c I) Hi)).
Qed.
Lemma followP c : Inv3n len c ->
  follows msg3 dmsg3 mabs3 mval3 len (Mci3 c) (vci3 (V3 (P3 c))) (ix3 (P3 c)) (pos3 (P3 c)) (ca3 (P3 c))
          (pos3 (C3 c)) (len - 1).
Proof.
  intros I. split; [apply (k_vP len c I) | exact (k_sci len c I) | | exact (k_ixP len c I) | | exact (k_lci len c I)].
  - intros i Hi. exact (proj1 (Forall_nth_msg3 _ _ i (k_mci len c I) Hi)).
  - pose proof (k_caP len c I) as H. unfold seenP3n in H. lia.
Qed.

Lemma load_spec c t j : Inv3n len c ->
  load len t j c <= avail len t c /\ (idx_len t c - 1 <= Nat.max j (idx_seen t c) -> load len t j c = avail len t c).
Proof.
  intros I. pose proof (behind3n len c I).
  destruct t; [apply (follow_pavail j Hlen (followP c I)) | apply (follow_dist j Hlen (followW c I))
               | apply (follow_dist j Hlen (followC c I))]; lia.
Qed.

Lemma inv_ok c t : Inv3n len c -> kok (ctl (thr t c)).
Proof. intros I. destruct t; [exact (k_pcP len c I) | exact (k_pcW len c I) | exact (k_pcC len c I)]. Qed.

Lemma inv_cap c t : Inv3n len c -> kca (ctl (thr t c)) + 1 <= len.
Proof. intros I. pose proof (behind3n len c I). destruct t; cbn [thr ctl kca]; lia. Qed.

Definition machine : kmachine := {|
  m_cfg := cfg3n; m_entry := entry; m_tid := tid; m_teq := tid_eqb; m_teq_spec := tid_eqb_spec;
  m_who := who; m_choice := fun e => snd (fst e); m_req := snd;
  m_step := step3_n len; m_own := own_step len; m_len_own := len_own len;
  m_ctl := fun t c => ctl (thr t c); m_other := fun c e t H => f_equal ctl (RA3n_other_step len c e t H);
  m_inv := Inv3n len; m_inv_step := step3n_inv len Hlen; m_ok := inv_ok; m_cap := len; m_le_cap := inv_cap;
  m_len := idx_len; m_vi := idx_seen; m_load := load len; m_true := avail len; m_load_spec := load_spec |}.

(* [run machine] is [exec3_n len], [gown machine] is [own_steps] and [krem (ctl t)] is [remaining t] by computation: read
   in these words, the statements about [exec3_n] below are the [G_*] of [machine] *)

Lemma finish c e : Inv3n len c -> pc3 (thr (who e) (exec3_n len c (repeat e (remaining (thr (who e) c))))) = 0.
Proof. intros I. exact (G_finish machine e _ c I eq_refl). Qed.

Lemma inv_exec s c : Inv3n len c -> Inv3n len (exec3_n len c s).
Proof. exact (Inv_run machine s c). Qed.

Lemma exec_app c s1 s2 : exec3_n len c (s1 ++ s2) = exec3_n len (exec3_n len c s1) s2.
Proof. apply fold_left_app. Qed.

Theorem drains_from c : Inv3n len c ->
  let c' := exec3_n len c (drain len c) in
  pc3 (P3 c') = 0 /\ pc3 (W3 c') = 0 /\ pc3 (C3 c') = 0 /\
  pos3 (W3 c') = pos3 (P3 c') /\ pos3 (C3 c') = pos3 (W3 c').
Proof.
  intros I. unfold drain.
  set (s1 := repeat eP (remaining (P3 c))). set (c1 := exec3_n len c s1).
  set (s2 := repeat eW (remaining (W3 c1))). set (c2 := exec3_n len c1 s2).
  set (s3 := repeat eC (remaining (C3 c2))). set (c3 := exec3_n len c2 s3).
  set (s4 := concat (repeat (op3 TW (length (Mpi3 c3))) (pos3 (P3 c3) - pos3 (W3 c3)))).
  set (c4 := exec3_n len c3 s4).
  cbv zeta. rewrite !exec_app. fold c1. fold c2. fold c3. fold c4.
  assert (I1 : Inv3n len c1) by exact (inv_exec s1 c I).
  assert (I2 : Inv3n len c2) by exact (inv_exec s2 c1 I1).
  assert (I3 : Inv3n len c3) by exact (inv_exec s3 c2 I2).
  (* every thread finishes the operation it is in *)
  assert (HP1 : pc3 (P3 c1) = 0) by exact (finish c eP I).
  assert (HW2 : pc3 (W3 c2) = 0) by exact (finish c1 eW I1).
  assert (HC3 : pc3 (C3 c3) = 0) by exact (finish c2 eC I2).
  assert (EP2 : ctl (P3 c2) = ctl (P3 c1)) by exact (G_alone machine eW TP _ c1 ltac:(discriminate)).
  assert (EP3 : ctl (P3 c3) = ctl (P3 c2)) by exact (G_alone machine eC TP _ c2 ltac:(discriminate)).
  assert (EW3 : ctl (W3 c3) = ctl (W3 c2)) by exact (G_alone machine eC TW _ c2 ltac:(discriminate)).
  (* the worker catches up with the producer *)
  pose proof (behind3n len c3 I3) as B3.
  destruct (G_catch_up machine (TW, length (Mpi3 c3), 1) TP ltac:(discriminate) eq_refl (fun _ => eq_refl)
              (pos3 (P3 c3) - pos3 (W3 c3)) c3 I3 ltac:(cbn; lia) (eq_trans (f_equal kpc EW3) HW2) ltac:(cbn; lia))
    as (I4 & HW4 & Hp4 & F4).
  pose proof (F4 TP ltac:(discriminate)) as EP4. pose proof (F4 TC ltac:(discriminate)) as EC4.
  (* the consumer catches up with the worker *)
  pose proof (behind3n len c4 I4) as B4.
  destruct (G_catch_up machine (TC, length (Mwi3 c4), 1) TW ltac:(discriminate) eq_refl (fun _ => eq_refl)
              (pos3 (W3 c4) - pos3 (C3 c4)) c4 I4 ltac:(cbn; lia) (eq_trans (f_equal kpc EC4) HC3) ltac:(cbn; lia))
    as (_ & HC5 & Hp5 & F5).
  pose proof (F5 TP ltac:(discriminate)) as EP5. pose proof (F5 TW ltac:(discriminate)) as EW5.
  RA.splits.
  - exact (eq_trans (f_equal kpc (eq_trans EP5 (eq_trans EP4 (eq_trans EP3 EP2)))) HP1).
  - exact (eq_trans (f_equal kpc EW5) HW4).
  - exact HC5.
  - exact (eq_trans (f_equal kpos EW5) (eq_trans Hp4 (eq_sym (f_equal kpos (eq_trans EP5 EP4))))).
  - exact (eq_trans Hp5 (eq_sym (f_equal kpos EW5))).
Qed.
End WithInv.

Theorem RA3n_returns : forall len, 0 < len -> forall script s t,
  let c := exec3_n len (init3_n len) script in
  remaining (thr t c) <= own_steps t s ->
  exists s1 s2, s = s1 ++ s2 /\ own_steps t s1 = remaining (thr t c) /\ pc3 (thr t (exec3_n len c s1)) = 0.
Proof. intros len Hlen script s t c. exact (G_returns (machine len Hlen) t s c (exec3n_inv len Hlen script)). Qed.

Theorem RA3n_remaining_bounded : forall len, 0 < len -> forall script t,
  remaining (thr t (exec3_n len (init3_n len) script)) <= len.
Proof. intros len Hlen script t. exact (G_rem_le (machine len Hlen) _ t (exec3n_inv len Hlen script)). Qed.

Theorem RA3n_operation_bounded : forall len, 0 < len -> forall script s t,
  let c := exec3_n len (init3_n len) script in
  len + 1 <= own_steps t s ->
  exists s1 s2, s = s1 ++ s2 /\ 1 <= own_steps t s1 /\ own_steps t s1 <= len + 1 /\
                pc3 (thr t (exec3_n len c s1)) = 0.
Proof. intros len Hlen script s t c. exact (G_operation (machine len Hlen) t s c (exec3n_inv len Hlen script)). Qed.

Theorem RA3n_own_step : forall len, 0 < len -> forall script e,
  let c := exec3_n len (init3_n len) script in
  pc3 (thr (who e) c) <> 0 -> remaining (thr (who e) (step3_n len c e)) + 1 = remaining (thr (who e) c).
Proof. intros len Hlen script e c. exact (G_own_dec (machine len Hlen) c e (exec3n_inv len Hlen script)). Qed.

(* the other threads suspended for ever or gone: the thread alone finishes its operation *)
Theorem RA3n_returns_alone : forall len, 0 < len -> forall script e,
  let c := exec3_n len (init3_n len) script in
  pc3 (thr (who e) (exec3_n len c (repeat e (remaining (thr (who e) c))))) = 0.
Proof. intros len Hlen script e c. apply finish; auto. apply exec3n_inv; auto. Qed.

Theorem RA3n_fresh_look_worker : forall len, 0 < len -> forall script j n0,
  let c := exec3_n len (init3_n len) script in
  pc3 (W3 c) = 0 -> ca3 (W3 c) < Nat.max 1 n0 ->
  length (Mpi3 c) - 1 <= Nat.max j (vpi3 (V3 (W3 c))) ->
  let c' := stepW3_n len j n0 c in
  ca3 (W3 c') = lastabs3 (Mpi3 c) - pos3 (W3 c) /\ lastabs3 (Mpi3 c) = pos3 (P3 c) /\
  (pc3 (W3 c') = 2 /\ cnt3 (W3 c') = Nat.max 1 n0 /\ Nat.max 1 n0 <= pos3 (P3 c) - pos3 (W3 c) \/
   pc3 (W3 c') = 0 /\ pos3 (P3 c) - pos3 (W3 c) < Nat.max 1 n0).
Proof.
  intros len Hlen script j n0 c H0 Hca Hj c'. pose proof (exec3n_inv len Hlen script : Inv3n len c) as I.
  destruct (G_look (machine len Hlen) c (TW, j, n0) I H0 Hca) as [_ K]. destruct (K Hj) as [Ka Kp].
  rewrite (k_lpi len c I). exact (conj Ka (conj eq_refl Kp)).
Qed.

Theorem RA3n_fresh_look_consumer : forall len, 0 < len -> forall script j n0,
  let c := exec3_n len (init3_n len) script in
  pc3 (C3 c) = 0 -> ca3 (C3 c) < Nat.max 1 n0 ->
  length (Mwi3 c) - 1 <= Nat.max j (vwi3 (V3 (C3 c))) ->
  let c' := stepC3_n len j n0 c in
  ca3 (C3 c') = lastabs3 (Mwi3 c) - pos3 (C3 c) /\ lastabs3 (Mwi3 c) = pos3 (W3 c) /\
  (pc3 (C3 c') = 2 /\ cnt3 (C3 c') = Nat.max 1 n0 /\ Nat.max 1 n0 <= pos3 (W3 c) - pos3 (C3 c) \/
   pc3 (C3 c') = 0 /\ pos3 (W3 c) - pos3 (C3 c) < Nat.max 1 n0).
Proof.
  intros len Hlen script j n0 c H0 Hca Hj c'. pose proof (exec3n_inv len Hlen script : Inv3n len c) as I.
  destruct (G_look (machine len Hlen) c (TC, j, n0) I H0 Hca) as [_ K]. destruct (K Hj) as [Ka Kp].
  rewrite (k_lwi len c I). exact (conj Ka (conj eq_refl Kp)).
Qed.

Theorem RA3n_fresh_look_producer : forall len, 0 < len -> forall script j n0,
  let c := exec3_n len (init3_n len) script in
  pc3 (P3 c) = 0 -> ca3 (P3 c) < Nat.max 1 n0 ->
  length (Mci3 c) - 1 <= Nat.max j (vci3 (V3 (P3 c))) ->
  let c' := stepP3_n len j n0 c in
  ca3 (P3 c') = lastabs3 (Mci3 c) + len - 1 - pos3 (P3 c) /\ lastabs3 (Mci3 c) = pos3 (C3 c) /\
  (pc3 (P3 c') = 2 /\ cnt3 (P3 c') = Nat.max 1 n0 /\ Nat.max 1 n0 <= pos3 (C3 c) + len - 1 - pos3 (P3 c) \/
   pc3 (P3 c') = 0 /\ pos3 (C3 c) + len - 1 - pos3 (P3 c) < Nat.max 1 n0).
Proof.
  intros len Hlen script j n0 c H0 Hca Hj c'. pose proof (exec3n_inv len Hlen script : Inv3n len c) as I.
  destruct (G_look (machine len Hlen) c (TP, j, n0) I H0 Hca) as [_ K]. destruct (K Hj) as [Ka Kp].
  rewrite (k_lci len c I). exact (conj Ka (conj eq_refl Kp)).
Qed.

Theorem RA3n_load_sound : forall len, 0 < len -> forall script j n0,
  let c := exec3_n len (init3_n len) script in
  (pc3 (W3 c) = 0 -> ca3 (W3 c) < Nat.max 1 n0 -> ca3 (W3 (stepW3_n len j n0 c)) <= pos3 (P3 c) - pos3 (W3 c)) /\
  (pc3 (C3 c) = 0 -> ca3 (C3 c) < Nat.max 1 n0 -> ca3 (C3 (stepC3_n len j n0 c)) <= pos3 (W3 c) - pos3 (C3 c)) /\
  (pc3 (P3 c) = 0 -> ca3 (P3 c) < Nat.max 1 n0 ->
   ca3 (P3 (stepP3_n len j n0 c)) <= pos3 (C3 c) + len - 1 - pos3 (P3 c)).
Proof.
  intros len Hlen script j n0 c. pose proof (exec3n_inv len Hlen script) as I.
  RA.splits; intros H0 Hca;
    [apply (G_look (machine len Hlen) c (TW, j, n0) I H0 Hca) | apply (G_look (machine len Hlen) c (TC, j, n0) I H0 Hca)
     | apply (G_look (machine len Hlen) c (TP, j, n0) I H0 Hca)].
Qed.

Theorem RA3n_drains : forall len, 0 < len -> forall script, exists s',
  let c' := exec3_n len (init3_n len) (script ++ s') in
  pc3 (P3 c') = 0 /\ pc3 (W3 c') = 0 /\ pc3 (C3 c') = 0 /\
  pos3 (W3 c') = pos3 (P3 c') /\ pos3 (C3 c') = pos3 (W3 c').
Proof.
  intros len Hlen script. exists (drain len (exec3_n len (init3_n len) script)).
  cbv zeta. rewrite exec_app. apply drains_from; auto. apply exec3n_inv; auto.
Qed.
Definition after_push3 := exec3_n 4 (init3_n 4) [sP 3; sP 3; sP 3; sP 3; sP 3].   (* P has published 3 items *)
(* (B) the worker: a stale read (choice 0: the initial message) sees nothing and refuses; a fresh read sees all 3 *)
Example stale_vs_fresh :
  let st := stepW3_n 4 0 2 after_push3 in let fr := stepW3_n 4 99 2 after_push3 in
  (ca3 (W3 st), pc3 (W3 st)) = (0, 0) /\ (ca3 (W3 fr), pc3 (W3 fr)) = (3, 2) /\
  pos3 (P3 after_push3) - pos3 (W3 after_push3) = 3.
Proof. vm_compute. auto. Qed.
(* (C) P about to publish a 3rd item, W has edited 1 of a window of 2, C has just been refused on a stale read:
   [drain] = P finishes (1 step), W finishes (2 steps), W handles 1 item, C handles 3 items *)
Definition midway :=
  exec3_n 4 (init3_n 4) [sP 2; sP 2; sP 2; sP 2; (TW, 0, 1); sW 2; sW 2; sP 1; sP 1; (TC, 0, 1)].
Example drain_midway :
  summary3 midway = (false, (2, 6, 1, 3), (0, 4, 2, 2), (0, 4, 0, 0)) /\
  drain 4 midway = [eP] ++ [eW; eW] ++ op3 TW 3 ++ op3 TC 3 ++ op3 TC 3 ++ op3 TC 3 /\
  summary3 (exec3_n 4 midway (drain 4 midway)) = (false, (3, 7, 0, 0), (3, 7, 0, 0), (3, 7, 0, 0)).
Proof. vm_compute. auto. Qed.
End Three.

Print Assumptions Two.RAn_other_step.
Print Assumptions Two.RAn_own_step.
Print Assumptions Two.RAn_remaining_bounded.
Print Assumptions Two.RAn_returns.
Print Assumptions Two.RAn_operation_bounded.
Print Assumptions Two.RAn_returns_alone.
Print Assumptions Two.RAn_fresh_look_consumer.
Print Assumptions Two.RAn_fresh_look_producer.
Print Assumptions Two.RAn_load_sound.
Print Assumptions Two.RAn_drains.
Print Assumptions Three.RA3n_other_step.
Print Assumptions Three.RA3n_own_step.
Print Assumptions Three.RA3n_remaining_bounded.
Print Assumptions Three.RA3n_returns.
Print Assumptions Three.RA3n_operation_bounded.
Print Assumptions Three.RA3n_returns_alone.
Print Assumptions Three.RA3n_fresh_look_worker.
Print Assumptions Three.RA3n_fresh_look_consumer.
Print Assumptions Three.RA3n_fresh_look_producer.
Print Assumptions Three.RA3n_load_sound.
Print Assumptions Three.RA3n_drains.
