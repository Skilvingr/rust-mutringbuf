(** * The three-stage (producer -> worker -> consumer) release/acquire machine with the orderings as parameters
      (see RAg.v); with both flags set it is the machine of RA3.v. *)
From Coq Require Import List Arith Bool.
Import ListNotations.
Require Import MRB.Conc.RA MRB.Conc.RA3.
Require MRB.Conc.RA3nproof.

Section MG3.
Variables (acq rel : bool).
Definition vzero3 := mkV3 0 0 0 0 0 0 0 0 0.
Variable len : nat.

Definition gstepP3 (j : nat) (c : cfg3) : cfg3 :=
  let t := P3 c in
  match pc3 t with
  | 0 =>
    if 1 <=? ca3 t then (mkC3 (Mpi3 c) (Mwi3 c) (Mci3 c) (metas3 c) (mkT3 (ix3 t) (ca3 t) (V3 t) 2 (pos3 t)) (W3 c) (C3 c) (race3 c))
    else
      let i := pick (vci3 (V3 t)) (length (Mci3 c)) j in
      let m := nth i (Mci3 c) dmsg3 in
      let v0 := V3 t in
      let v1 := vjoin3 (mkV3 (vpi3 v0) (vwi3 v0) i (kp3 v0) (kw3 v0) (kc3 v0) (wP3 v0) (wW3 v0) (wC3 v0)) (if acq then mview3 m else vzero3) in
      let a := pavail len (ix3 t) (mval3 m) in
      (mkC3 (Mpi3 c) (Mwi3 c) (Mci3 c) (metas3 c) (mkT3 (ix3 t) a v1 (if 1 <=? a then 2 else 0) (pos3 t)) (W3 c) (C3 c) (race3 c))
  | 2 =>
    let mt := nth (ix3 t) (metas3 c) dmeta3 in
    let bad := negb (wcov TP mt (V3 t)) || negb (rclk3 mt <=? kc3 (V3 t)) in
    (mkC3 (Mpi3 c) (Mwi3 c) (Mci3 c) (upd (ix3 t) (mkMeta3 TP (pos3 t) (kp3 (V3 t)) (rpos3 mt) (rclk3 mt)) (metas3 c)) (mkT3 (ix3 t) (ca3 t) (V3 t) 3 (pos3 t)) (W3 c) (C3 c) (race3 c || bad))
  | 3 =>
    let ix' := wadd len (ix3 t) 1 in
    let v0 := V3 t in
    let v1 := (mkV3 (length (Mpi3 c)) (vwi3 v0) (vci3 v0) (kp3 v0) (kw3 v0) (kc3 v0) (S (pos3 t)) (wW3 v0) (wC3 v0)) in
    let m := mkM3 ix' (S (pos3 t)) (if rel then v1 else vzero3) in
    (mkC3 (Mpi3 c ++ [m]) (Mwi3 c) (Mci3 c) (metas3 c) (mkT3 ix' (ca3 t - 1) (mkV3 (vpi3 v1) (vwi3 v1) (vci3 v1) (S (kp3 v1)) (kw3 v1) (kc3 v1) (wP3 v1) (wW3 v1) (wC3 v1)) 0 (S (pos3 t))) (W3 c) (C3 c) (race3 c))
  | _ => c
  end.

Definition gstepW3 (j : nat) (c : cfg3) : cfg3 :=
  let t := W3 c in
  match pc3 t with
  | 0 =>
    if 1 <=? ca3 t then (mkC3 (Mpi3 c) (Mwi3 c) (Mci3 c) (metas3 c) (P3 c) (mkT3 (ix3 t) (ca3 t) (V3 t) 2 (pos3 t)) (C3 c) (race3 c))
    else
      let i := pick (vpi3 (V3 t)) (length (Mpi3 c)) j in
      let m := nth i (Mpi3 c) dmsg3 in
      let v0 := V3 t in
      let v1 := vjoin3 (mkV3 i (vwi3 v0) (vci3 v0) (kp3 v0) (kw3 v0) (kc3 v0) (wP3 v0) (wW3 v0) (wC3 v0)) (if acq then mview3 m else vzero3) in
      let a := dist len (ix3 t) (mval3 m) in
      (mkC3 (Mpi3 c) (Mwi3 c) (Mci3 c) (metas3 c) (P3 c) (mkT3 (ix3 t) a v1 (if 1 <=? a then 2 else 0) (pos3 t)) (C3 c) (race3 c))
  | 2 =>
    let mt := nth (ix3 t) (metas3 c) dmeta3 in
    let bad := negb (wcov TW mt (V3 t)) || negb (rclk3 mt <=? kc3 (V3 t)) in
    (mkC3 (Mpi3 c) (Mwi3 c) (Mci3 c) (upd (ix3 t) (mkMeta3 TW (pos3 t) (kw3 (V3 t)) (rpos3 mt) (rclk3 mt)) (metas3 c)) (P3 c) (mkT3 (ix3 t) (ca3 t) (V3 t) 3 (pos3 t)) (C3 c) (race3 c || bad))
  | 3 =>
    let ix' := wadd len (ix3 t) 1 in
    let v0 := V3 t in
    let v1 := (mkV3 (vpi3 v0) (length (Mwi3 c)) (vci3 v0) (kp3 v0) (kw3 v0) (kc3 v0) (wP3 v0) (S (pos3 t)) (wC3 v0)) in
    let m := mkM3 ix' (S (pos3 t)) (if rel then v1 else vzero3) in
    (mkC3 (Mpi3 c) (Mwi3 c ++ [m]) (Mci3 c) (metas3 c) (P3 c) (mkT3 ix' (ca3 t - 1) (mkV3 (vpi3 v1) (vwi3 v1) (vci3 v1) (kp3 v1) (S (kw3 v1)) (kc3 v1) (wP3 v1) (wW3 v1) (wC3 v1)) 0 (S (pos3 t))) (C3 c) (race3 c))
  | _ => c
  end.

Definition gstepC3 (j : nat) (c : cfg3) : cfg3 :=
  let t := C3 c in
  match pc3 t with
  | 0 =>
    if 1 <=? ca3 t then (mkC3 (Mpi3 c) (Mwi3 c) (Mci3 c) (metas3 c) (P3 c) (W3 c) (mkT3 (ix3 t) (ca3 t) (V3 t) 2 (pos3 t)) (race3 c))
    else
      let i := pick (vwi3 (V3 t)) (length (Mwi3 c)) j in
      let m := nth i (Mwi3 c) dmsg3 in
      let v0 := V3 t in
      let v1 := vjoin3 (mkV3 (vpi3 v0) i (vci3 v0) (kp3 v0) (kw3 v0) (kc3 v0) (wP3 v0) (wW3 v0) (wC3 v0)) (if acq then mview3 m else vzero3) in
      let a := dist len (ix3 t) (mval3 m) in
      (mkC3 (Mpi3 c) (Mwi3 c) (Mci3 c) (metas3 c) (P3 c) (W3 c) (mkT3 (ix3 t) a v1 (if 1 <=? a then 2 else 0) (pos3 t)) (race3 c))
  | 2 =>
    let mt := nth (ix3 t) (metas3 c) dmeta3 in
    let bad := negb (wcov TC mt (V3 t)) in
    (mkC3 (Mpi3 c) (Mwi3 c) (Mci3 c) (upd (ix3 t) (mkMeta3 (wt mt) (wpos3 mt) (wclk3 mt) (pos3 t) (kc3 (V3 t))) (metas3 c)) (P3 c) (W3 c) (mkT3 (ix3 t) (ca3 t) (V3 t) 3 (pos3 t)) (race3 c || bad))
  | 3 =>
    let ix' := wadd len (ix3 t) 1 in
    let v0 := V3 t in
    let v1 := (mkV3 (vpi3 v0) (vwi3 v0) (length (Mci3 c)) (kp3 v0) (kw3 v0) (kc3 v0) (wP3 v0) (wW3 v0) (S (pos3 t))) in
    let m := mkM3 ix' (S (pos3 t)) (if rel then v1 else vzero3) in
    (mkC3 (Mpi3 c) (Mwi3 c) (Mci3 c ++ [m]) (metas3 c) (P3 c) (W3 c) (mkT3 ix' (ca3 t - 1) (mkV3 (vpi3 v1) (vwi3 v1) (vci3 v1) (kp3 v1) (kw3 v1) (S (kc3 v1)) (wP3 v1) (wW3 v1) (wC3 v1)) 0 (S (pos3 t))) (race3 c))
  | _ => c
  end.

Definition gstep3 (c : cfg3) (s : tid * nat) : cfg3 :=
  match fst s with TP => gstepP3 (snd s) c | TW => gstepW3 (snd s) c | TC => gstepC3 (snd s) c end.
Definition gexec3 (c : cfg3) (script : list (tid * nat)) : cfg3 := fold_left gstep3 script c.

Definition gvinit (kp kw kc : nat) := mkV3 0 0 0 kp kw kc len len len.
Definition ginit3 : cfg3 :=
  mkC3 [mkM3 0 len (gvinit 0 0 0)] [mkM3 0 len (gvinit 0 0 0)] [mkM3 0 len (gvinit 0 0 0)]
       (map (fun k => mkMeta3 TC k 0 k 0) (seq 0 len))
       (mkT3 0 0 (gvinit 1 0 0) 0 len) (mkT3 0 0 (gvinit 0 1 0) 0 len) (mkT3 0 0 (gvinit 0 0 1) 0 len) false.
End MG3.

Lemma gstep3_strong len c s : gstep3 true true len c s = step3 len c s.
Proof. unfold gstep3, step3, gstepP3, stepP, gstepW3, stepW, gstepC3, stepC. destruct (fst s); reflexivity. Qed.

Lemma gexec3_strong len script : forall c, gexec3 true true len c script = exec3 len c script.
Proof. induction script as [|s r IH]; intros c; simpl; auto. Qed.

Theorem g3_race_free acq rel : acq = true -> rel = true ->
  forall len script, 0 < len -> race3 (gexec3 acq rel len (ginit3 len) script) = false.
Proof. intros -> -> len script Hl. rewrite gexec3_strong. exact (RA3nproof.pipeline3_race_free len script Hl). Qed.

(** with a relaxed worker load the worker can edit a slot whose producer write it has not acquired *)
Example relaxed_worker_load_races :
  race3 (gexec3 false true 2 (ginit3 2) [(TP, 0); (TP, 0); (TP, 0); (TW, 1); (TW, 0)]) = true.
Proof. vm_compute. reflexivity. Qed.
