(** * Two further properties of the release/acquire view machines (RAn.v, RA3n.v, RAx.v), for every [len > 0]
      and every script (any interleaving, any admissible stale read, any sequence of window sizes / commands).

    ** (A) JOINED CONSERVATION (C02, second sentence)
       "Once all threads have finished and been joined, consumed items followed by the items still in the buffer
        equal the accepted pushes: nothing is lost, duplicated, reordered or seen half-processed."

       Three-stage value machine (RA3nvalues.v):
       - [conservation_3n_any_time]  at EVERY moment (also in the middle of windows), with the frontiers
             [fr t = pos t + off t] (the next slot a thread will touch):
               clog v ++ [slots of positions fr C .. fr P - 1, in ring order]
             = [item p | p = len .. fr P - 1],  item p = f (pv p) if p < fr W (the worker has edited it), pv p otherwise;
       - [joined_conservation_3n]    all three threads between operations (pc 0): the same with the published
             positions [pos3] in the place of the frontiers;
       - [joined_conservation_3n_caught_up]  ... and the worker has caught up ([pos W = pos P]):
               clog v ++ buffer = map (f . pv) (seq len (pos P - len)).
       Two-stage machine with reset / detach (RAxvalues.v), scripts without a consumer [Reset]:
       - [conservation_x_any_time], [joined_conservation_x] :
               clog v ++ buffer = map pv (seq len (pos P - len)).
       (Detach / Sync / Attach are allowed: the LOCAL consumer position is what counts.)

    ** (B) AVAILABILITY ERRS ONLY TOWARDS REFUSING (C05)
       For the three machines, at every moment of every execution, for every thread: the remembered availability
       [ca] - counted from the thread's published position [pos], as the machines do (a window of [cnt] slots is
       granted when [cnt <= ca]; [ca] is decremented by [cnt] only at the publish step, pc 3) - never reaches beyond
       the TRUE limit, i.e. the REAL current position of the thread it follows:
         consumer (follows the producer, in RA3n the worker):  pos C + ca C     <= pos P   (pos W)
         worker   (RA3n, follows the producer):                pos W + ca W     <= pos P
         producer (follows the consumer, one slot kept free):  pos P + ca P + 1 <= pos C + len
       and the part of the current window already handled lies within it: [off <= ca].  In other words what is
       still available AFTER the [off] slots already accessed, [ca - off], satisfies
         pos + off + (ca - off) <= limit.
       ([ca_under_n], [ca_under_3n], [ca_under_x]; for RAx the consumer's REAL position is its local one, which
        is >= the published one also while detached; the producer's bound is given for both.)
       Consequences ([granted_within_n], [granted_within_3n], [granted_within_x]): a granted window
       ([pc = 2] or [3]) lies entirely below the limit, and at [pc = 2] the position being accessed is strictly
       below the followed thread's real position (for the producer: strictly below [pos C + len - 1]).

       The LITERAL form "pos + off + ca <= limit" (offset ADDED to an availability that is counted from [pos]) is
       FALSE in all three machines, because [ca] is not decremented while a window is being accessed:
       [ca_plus_off_n_refuted], [ca_plus_off_3n_refuted], [ca_plus_off_x_refuted] (concrete witnesses).

       Non-vacuity: [stale_*] examples - after a stale read [ca] is STRICTLY smaller than the true availability. *)
From Coq Require Import List Arith Lia.
Import ListNotations.
Require MRB.Conc.RAnproof.
Require MRB.Conc.RA3nvalues.
Require MRB.Conc.RAxvalues.


Lemma seq_split_at (a d e : nat) : a <= d -> d <= e -> seq a (d - a) ++ seq d (e - d) = seq a (e - a).
Proof.
  intros Had Hde.
  replace (e - a) with ((d - a) + (e - d)) by lia.
  rewrite seq_app. replace (a + (d - a)) with d by lia. reflexivity.
Qed.

Module ThreeStage.
Import MRB.Conc.RA MRB.Conc.RA3 MRB.Conc.RA3n MRB.Conc.RA3nproof MRB.Conc.RA3nvalues.

(** the accepted push of absolute position [p], as it is stored once the worker's frontier is [w] *)
Definition item3 (pv f : nat -> nat) (w p : nat) : nat := if p <? w then f (pv p) else pv p.

(** the contents of the ring slots of the absolute positions [lo .. hi - 1], in ring order *)
Definition ring3 (len : nat) (v : vst) (lo hi : nat) : list nat :=
  map (fun p => nth (p mod len) (vals v) 0) (seq lo (hi - lo)).

Lemma VI_conservation len pv f init ms a b d v :
  0 < len -> VI len pv f init ms a b d v -> d <= b -> b <= a ->
  clog v ++ ring3 len v d a = map (item3 pv f b) (seq len (a - len)).
Proof.
  intros Hlen [VL VV E1 E2 LG VP] Hdb Hba.
  rewrite LG. unfold ring3.
  rewrite <- (seq_split_at len d a) by lia. rewrite map_app. f_equal.
  - apply map_ext_in. intros p Hp. apply in_seq in Hp. unfold item3.
    destruct (Nat.ltb_spec p b) as [Hlt|Hge]; [reflexivity | lia].
  - apply map_ext_in. intros p Hp. apply in_seq in Hp.
    assert (Hk : p mod len < len) by (apply Nat.mod_upper_bound; lia).
    rewrite (VV _ Hk). unfold val_of, item3.
    destruct (Nat.ltb_spec p b) as [Hlt|Hge].
    + destruct (E1 p) as [Ew Ep]; [lia|]. rewrite Ew, Ep. reflexivity.
    + destruct (E2 p) as [Ew Ep]; [lia|]. rewrite Ew, Ep. reflexivity.
Qed.

(** At every moment of every execution: consumed ++ ring contents between the consumer's and the producer's
    frontier = the accepted pushes, the worker's transformation applied exactly to those below its frontier. *)
Theorem conservation_3n_any_time len pv f init script : 0 < len ->
  let '(c, v) := vexec_n len pv f (init3_n len) (vinit0 len init) script in
  c = exec3_n len (init3_n len) script /\
  clog v ++ ring3 len v (fr (C3 c)) (fr (P3 c))
  = map (item3 pv f (fr (W3 c))) (seq len (fr (P3 c) - len)).
Proof.
  intros Hl.
  pose proof (vexec_n_inv len Hl pv f init script _ _ (init3n_inv len Hl) (vinit_n_inv len Hl pv f init)) as [I V].
  pose proof (vexec_n_fst len pv f script (init3_n len) (vinit0 len init)) as E.
  destruct (vexec_n len pv f (init3_n len) (vinit0 len init) script) as [c v]. cbn [fst snd] in *.
  split; [exact E|].
  destruct (frontier_facts len Hl c I) as (F1 & F2 & _).
  exact (VI_conservation len pv f init _ _ _ _ v Hl V F1 F2).
Qed.

(** JOINED: all three threads are between operations (finished). *)
Theorem joined_conservation_3n len pv f init script : 0 < len ->
  let '(c, v) := vexec_n len pv f (init3_n len) (vinit0 len init) script in
  pc3 (P3 c) = 0 -> pc3 (W3 c) = 0 -> pc3 (C3 c) = 0 ->
  clog v ++ ring3 len v (pos3 (C3 c)) (pos3 (P3 c))
  = map (item3 pv f (pos3 (W3 c))) (seq len (pos3 (P3 c) - len)).
Proof.
  intros Hl.
  pose proof (vexec_n_inv len Hl pv f init script _ _ (init3n_inv len Hl) (vinit_n_inv len Hl pv f init)) as [I V].
  destruct (vexec_n len pv f (init3_n len) (vinit0 len init) script) as [c v]. cbn [fst snd] in *.
  intros HpcP HpcW HpcC.
  destruct (frontier_facts len Hl c I) as (F1 & F2 & _).
  pose proof (VI_conservation len pv f init _ _ _ _ v Hl V F1 F2) as K.
  unfold fr in K.
  rewrite (pc0_off3 _ (k_pcP len c I) HpcP), (pc0_off3 _ (k_pcW len c I) HpcW), (pc0_off3 _ (k_pcC len c I) HpcC),
    !Nat.add_0_r in K.
  exact K.
Qed.

(** ... and the worker has caught up with the producer: everything accepted has been transformed. *)
Corollary joined_conservation_3n_caught_up len pv f init script : 0 < len ->
  let '(c, v) := vexec_n len pv f (init3_n len) (vinit0 len init) script in
  pc3 (P3 c) = 0 -> pc3 (W3 c) = 0 -> pc3 (C3 c) = 0 -> pos3 (W3 c) = pos3 (P3 c) ->
  clog v ++ ring3 len v (pos3 (C3 c)) (pos3 (P3 c))
  = map (fun p => f (pv p)) (seq len (pos3 (P3 c) - len)).
Proof.
  intros Hl. pose proof (joined_conservation_3n len pv f init script Hl) as J.
  destruct (vexec_n len pv f (init3_n len) (vinit0 len init) script) as [c v].
  intros HpcP HpcW HpcC Hwp. rewrite (J HpcP HpcW HpcC), Hwp.
  apply map_ext_in. intros p Hp. apply in_seq in Hp. unfold item3.
  destruct (Nat.ltb_spec p (pos3 (P3 c))) as [Hlt|Hge]; [reflexivity | lia].
Qed.

(** ... and in that case, if the consumer has caught up as well, the buffer is empty and the log is everything. *)
Corollary joined_all_consumed_3n len pv f init script : 0 < len ->
  let '(c, v) := vexec_n len pv f (init3_n len) (vinit0 len init) script in
  pc3 (P3 c) = 0 -> pc3 (W3 c) = 0 -> pc3 (C3 c) = 0 ->
  pos3 (W3 c) = pos3 (P3 c) -> pos3 (C3 c) = pos3 (P3 c) ->
  clog v = map (fun p => f (pv p)) (seq len (pos3 (P3 c) - len)).
Proof.
  intros Hl. pose proof (joined_conservation_3n_caught_up len pv f init script Hl) as J.
  destruct (vexec_n len pv f (init3_n len) (vinit0 len init) script) as [c v].
  intros HpcP HpcW HpcC Hwp Hcp. rewrite <- (J HpcP HpcW HpcC Hwp).
  unfold ring3. rewrite Hcp, Nat.sub_diag. cbn [seq map]. rewrite app_nil_r. reflexivity.
Qed.

(* Example, len = 4, pv p = 10 * p, f = S, slots initially 0.  P pushes 3 (positions 4,5,6), W works 2 (4,5),
   C consumes 1 (4); all three at pc 0: consumed [41], buffer [51; 60] (position 6 pushed, not yet worked). *)
Definition joined_demo : list (tid * nat * nat) :=
  [ sP 3; sP 3; sP 3; sP 3; sP 3;  sW 2; sW 2; sW 2; sW 2;  sC 1; sC 1; sC 1 ].
Example joined_demo_values :
  let r := vexec_n 4 (fun p => 10 * p) S (init3_n 4) (vinit0 4 (fun _ => 0)) joined_demo in
  (pc3 (P3 (fst r)), pc3 (W3 (fst r)), pc3 (C3 (fst r))) = (0, 0, 0) /\
  (pos3 (C3 (fst r)), pos3 (W3 (fst r)), pos3 (P3 (fst r))) = (5, 6, 7) /\
  clog (snd r) = [41] /\ ring3 4 (snd r) 5 7 = [51; 60] /\
  map (item3 (fun p => 10 * p) S 6) (seq 4 3) = [41; 51; 60].
Proof. vm_compute. repeat split; reflexivity. Qed.

Lemma ca_under_inv3n len c : Inv3n len c ->
  (pos3 (C3 c) + ca3 (C3 c) <= pos3 (W3 c) /\ off3 (C3 c) <= ca3 (C3 c)) /\
  (pos3 (W3 c) + ca3 (W3 c) <= pos3 (P3 c) /\ off3 (W3 c) <= ca3 (W3 c)) /\
  (pos3 (P3 c) + ca3 (P3 c) + 1 <= pos3 (C3 c) + len /\ off3 (P3 c) <= ca3 (P3 c)).
Proof.
  intros I. pose proof (behind3n len c I).
  pose proof (off_le_ca_n _ (k_pcP len c I)). pose proof (off_le_ca_n _ (k_pcW len c I)).
  pose proof (off_le_ca_n _ (k_pcC len c I)). lia.
Qed.

Theorem ca_under_3n : forall len script, 0 < len ->
  let c := exec3_n len (init3_n len) script in
  (* consumer, follows the worker *)
  (pos3 (C3 c) + ca3 (C3 c) <= pos3 (W3 c) /\ off3 (C3 c) <= ca3 (C3 c)) /\
  (* worker, follows the producer *)
  (pos3 (W3 c) + ca3 (W3 c) <= pos3 (P3 c) /\ off3 (W3 c) <= ca3 (W3 c)) /\
  (* producer, follows the consumer one lap ahead, one slot kept free *)
  (pos3 (P3 c) + ca3 (P3 c) + 1 <= pos3 (C3 c) + len /\ off3 (P3 c) <= ca3 (P3 c)).
Proof. intros len script Hl c. exact (ca_under_inv3n len c (exec3n_inv len Hl script)). Qed.

(** the same with the offset: what is still available after the [off] slots already handled *)
Corollary ca_under_3n_off : forall len script, 0 < len ->
  let c := exec3_n len (init3_n len) script in
  pos3 (C3 c) + off3 (C3 c) + (ca3 (C3 c) - off3 (C3 c)) <= pos3 (W3 c) /\
  pos3 (W3 c) + off3 (W3 c) + (ca3 (W3 c) - off3 (W3 c)) <= pos3 (P3 c) /\
  pos3 (P3 c) + off3 (P3 c) + (ca3 (P3 c) - off3 (P3 c)) + 1 <= pos3 (C3 c) + len.
Proof. intros len script Hl. pose proof (ca_under_3n len script Hl) as H. cbv zeta in *. lia. Qed.

(** every granted window lies within the true availability; the position being accessed is strictly below the
    real position of the followed thread *)
Corollary granted_within_3n : forall len script, 0 < len ->
  let c := exec3_n len (init3_n len) script in
  (pc3 (C3 c) = 2 \/ pc3 (C3 c) = 3 -> pos3 (C3 c) + cnt3 (C3 c) <= pos3 (W3 c)) /\
  (pc3 (W3 c) = 2 \/ pc3 (W3 c) = 3 -> pos3 (W3 c) + cnt3 (W3 c) <= pos3 (P3 c)) /\
  (pc3 (P3 c) = 2 \/ pc3 (P3 c) = 3 -> pos3 (P3 c) + cnt3 (P3 c) + 1 <= pos3 (C3 c) + len) /\
  (pc3 (C3 c) = 2 -> pos3 (C3 c) + off3 (C3 c) < pos3 (W3 c)) /\
  (pc3 (W3 c) = 2 -> pos3 (W3 c) + off3 (W3 c) < pos3 (P3 c)) /\
  (pc3 (P3 c) = 2 -> pos3 (P3 c) + off3 (P3 c) + 1 < pos3 (C3 c) + len).
Proof.
  intros len script Hl c. pose proof (exec3n_inv len Hl script) as I. fold c in I.
  pose proof (ca_under_inv3n len c I) as ((C1&C2)&(W1&W2)&(P1&P2)).
  pose proof (k_pcP len c I) as HP. pose proof (k_pcW len c I) as HW. pose proof (k_pcC len c I) as HC.
  unfold pc_okn in *. splits; intros Hpc; lia.
Qed.

(** the literal form (offset ADDED to [ca]) is false: the consumer is granted a window of 2 out of [ca = 3] and
    has read one slot: pos 4, off 1, ca 3, the worker is at 7. *)
Definition lit3_witness : list (tid * nat * nat) :=
  [ sP 3; sP 3; sP 3; sP 3; sP 3;  sW 3; sW 3; sW 3; sW 3; sW 3;  sC 2; sC 2 ].
Theorem ca_plus_off_3n_refuted :
  ~ (forall len script, 0 < len ->
       let c := exec3_n len (init3_n len) script in
       pos3 (C3 c) + off3 (C3 c) + ca3 (C3 c) <= pos3 (W3 c)).
Proof.
  intros H. specialize (H 4 lit3_witness (Nat.lt_0_succ 3)). vm_compute in H. lia.
Qed.
Example lit3_witness_state :
  let c := exec3_n 4 (init3_n 4) lit3_witness in
  (pos3 (C3 c), off3 (C3 c), ca3 (C3 c), pc3 (C3 c), pos3 (W3 c)) = (4, 1, 3, 2, 7).
Proof. vm_compute. reflexivity. Qed.

(** non-vacuity: STALE reads make [ca] strictly smaller than the true availability (len = 4, capacity 3).
    P pushes 2, then 1 (messages "P at 6", "P at 7").
    c1: W reads the stale message "P at 6" (choice 1): ca = 2 although 3 items are really there; it is granted 2.
    c2: W works those 2 and publishes ("W at 6"); C reads the worker's INITIAL message (choice 0): ca = 0
        although 2 items are really available: refused.
    c3: C then reads the latest message, pops 2 and publishes ("C at 6"); P reads the consumer's INITIAL message
        (choice 0): ca = 0 although 2 slots are really free: refused. *)
Definition stale3_pre : list (tid * nat * nat) := [ sP 2; sP 2; sP 2; sP 2; sP 1; sP 1; sP 1; (TW, 1, 2) ].
Example stale_3n :
  let c1 := exec3_n 4 (init3_n 4) stale3_pre in
  let c2 := exec3_n 4 (init3_n 4) (stale3_pre ++ [ sW 2; sW 2; sW 2; (TC, 0, 2) ]) in
  let c3 := exec3_n 4 (init3_n 4) (stale3_pre ++ [ sW 2; sW 2; sW 2; (TC, 0, 2); sC 2; sC 2; sC 2; sC 2;
                                                    (TP, 0, 2) ]) in
  (ca3 (W3 c1), pos3 (P3 c1) - pos3 (W3 c1), pc3 (W3 c1)) = (2, 3, 2) /\
  (ca3 (C3 c2), pos3 (W3 c2) - pos3 (C3 c2), pc3 (C3 c2)) = (0, 2, 0) /\
  (ca3 (P3 c3), pos3 (C3 c3) + 4 - 1 - pos3 (P3 c3), pc3 (P3 c3)) = (0, 2, 0) /\
  race3 c3 = false.
Proof. vm_compute. repeat split; reflexivity. Qed.

End ThreeStage.

Module Extended.
Import MRB.Conc.RA MRB.Conc.RAproof MRB.Conc.RAx MRB.Conc.RAxproof MRB.Conc.RAxvalues.

Definition ringx (len : nat) (v : vst) (lo hi : nat) : list nat :=
  map (fun p => nth (p mod len) (vals v) 0) (seq lo (hi - lo)).

Lemma VInv_conservation len pv c v : 0 < len ->
  VInv len pv c v -> NR len c v -> frontC c <= frontP c ->
  clog v ++ ringx len v (frontC c) (frontP c) = map pv (seq len (frontP c - len)).
Proof.
  intros Hlen VI [_ N] Hcp.
  pose proof (v_lo len pv c v VI) as Hlo.
  rewrite (v_log len pv c v VI), N. unfold ringx.
  rewrite <- (seq_split_at len (frontC c) (frontP c)) by lia. rewrite map_app. f_equal.
  apply map_ext_in. intros p Hp. apply in_seq in Hp.
  assert (Hk : p mod len < len) by (apply Nat.mod_upper_bound; lia).
  assert (Hw : W c (p mod len) = p) by (apply (v_rng len pv c v VI); lia).
  rewrite (v_val len pv c v VI _ Hk) by (rewrite Hw; lia). rewrite Hw. reflexivity.
Qed.

(** At every moment of every execution without a consumer [Reset] (Detach / Sync / Attach allowed): consumed ++
    ring contents between the consumer's and the producer's frontier = the accepted pushes. *)
Theorem conservation_x_any_time : forall len pv init script, 0 < len ->
  (forall j, ~ In (false, Reset j) script) ->
  let c := exec_x len (init_x len) script in
  let v := vrun len pv init script in
  clog v ++ ringx len v (pos (C c) + off (C c)) (pos (P c) + off (P c))
  = map pv (seq len (pos (P c) + off (P c) - len)).
Proof.
  intros len pv init script Hl Hnr c v.
  destruct (vrun_inv len pv init script Hl) as [I VI]. fold c in I, VI. fold v in VI.
  pose proof (vrun_nr len pv init script Hl Hnr) as N. fold c in N. fold v in N.
  pose proof (frontC_le_posP len c I) as HfC.
  apply (VInv_conservation len pv c v Hl VI N). unfold frontC, frontP. lia.
Qed.

(** JOINED: both threads are between operations. *)
Theorem joined_conservation_x : forall len pv init script, 0 < len ->
  (forall j, ~ In (false, Reset j) script) ->
  let c := exec_x len (init_x len) script in
  let v := vrun len pv init script in
  pc (P c) = 0 -> pc (C c) = 0 ->
  clog v ++ ringx len v (pos (C c)) (pos (P c)) = map pv (seq len (pos (P c) - len)).
Proof.
  intros len pv init script Hl Hnr c v HpcP HpcC.
  pose proof (conservation_x_any_time len pv init script Hl Hnr) as K. cbv zeta in K. fold c in K. fold v in K.
  pose proof (exec_invx len Hl script) as I. fold c in I.
  rewrite (pc0_off _ (i_pcP len c I) HpcP), (pc0_offC len c (i_pcC len c I) HpcC), !Nat.add_0_r in K. exact K.
Qed.

(* Examples (RAxvalues.v's conventions: len = 4, pv p = 100 + p, slots initially 7).
   [demo_detached] cut after the first 16 entries: C detached, popped 2 (positions 4,5) locally, synced; P has
   pushed positions 4..8 (the last two wrap into slots 3, 0).  Both at pc 0. *)
Example joined_x_detached :
  let c := exec_x 4 (init_x 4) (firstn 16 demo_detached) in
  let v := vrun 4 pv_demo init_demo (firstn 16 demo_detached) in
  (pc (P c), pc (C c), pos (C c), pos (P c), det (C c)) = (0, 0, 6, 9, true) /\
  clog v = [104; 105] /\ ringx 4 v 6 9 = [106; 107; 108].
Proof. vm_compute. repeat split; reflexivity. Qed.

(* With a consumer [Reset] conservation fails, as it must (positions 5, 6 are skipped, and position 5's slot is
   overwritten): RAx.v's [demo_reset]. *)
Example reset_breaks_conservation_x :
  let c := exec_x 4 (init_x 4) demo_reset in
  let v := vrun 4 pv_demo init_demo demo_reset in
  (pc (P c), pc (C c)) = (0, 0) /\
  clog v ++ ringx 4 v (pos (C c)) (pos (P c)) = [104; 107; 108; 109] /\
  map pv_demo (seq 4 (pos (P c) - 4)) = [104; 105; 106; 107; 108; 109].
Proof. vm_compute. repeat split; reflexivity. Qed.

Lemma ca_under_invx len c : InvX len c ->
  (pos (C c) + ca (C c) <= pos (P c) /\ off (C c) <= ca (C c)) /\
  (pos (P c) + ca (P c) + 1 <= publishedC c + len /\ publishedC c <= pos (C c) /\ off (P c) <= ca (P c)).
Proof.
  intros I. pose proof (behindx len c I). pose proof (i_lci len c I).
  pose proof (offP_le_ca len c I). pose proof (offC_le_ca len c I).
  unfold publishedC. rewrite <- lastabs_last. lia.
Qed.

Theorem ca_under_x : forall len script, 0 < len ->
  let c := exec_x len (init_x len) script in
  (* consumer, follows the producer; also at pc 5 (between the load and the store of a reset) *)
  (pos (C c) + ca (C c) <= pos (P c) /\ off (C c) <= ca (C c)) /\
  (* producer, follows the consumer: bounded by the consumer's REAL (local) position, and even by the
     PUBLISHED one, which lags behind while the consumer is detached *)
  (pos (P c) + ca (P c) + 1 <= pos (C c) + len /\
   pos (P c) + ca (P c) + 1 <= publishedC c + len /\
   off (P c) <= ca (P c)).
Proof.
  intros len script Hl c.
  pose proof (ca_under_invx len c (exec_invx len Hl script)) as ((C1&C2)&(P1&P2&P3)).
  splits; try assumption. lia.
Qed.

Corollary ca_under_x_off : forall len script, 0 < len ->
  let c := exec_x len (init_x len) script in
  pos (C c) + off (C c) + (ca (C c) - off (C c)) <= pos (P c) /\
  pos (P c) + off (P c) + (ca (P c) - off (P c)) + 1 <= pos (C c) + len.
Proof. intros len script Hl. pose proof (ca_under_x len script Hl) as H. cbv zeta in *. lia. Qed.

Lemma granted_within_invx len c : InvX len c ->
  (pc (C c) = 2 \/ pc (C c) = 3 -> pos (C c) + cnt (C c) <= pos (P c)) /\
  (pc (P c) = 2 \/ pc (P c) = 3 -> pos (P c) + cnt (P c) + 1 <= pos (C c) + len) /\
  (pc (C c) = 2 -> pos (C c) + off (C c) < pos (P c)) /\
  (pc (P c) = 2 -> pos (P c) + off (P c) + 1 < pos (C c) + len) /\
  (pc (C c) = 5 -> pos (C c) <= npos (C c) <= pos (P c)).
Proof.
  intros I.
  pose proof (ca_under_invx len c I) as ((C1&C2)&(P1&P2&P3)).
  pose proof (i_pcP len c I) as HP. pose proof (i_pcC len c I) as HC.
  pose proof (seenCx_le_posP len c I) as Hs.
  unfold pc_okC, pc_ok in *. splits; intros Hpc; lia.
Qed.

Corollary granted_within_x : forall len script, 0 < len ->
  let c := exec_x len (init_x len) script in
  (pc (C c) = 2 \/ pc (C c) = 3 -> pos (C c) + cnt (C c) <= pos (P c)) /\
  (pc (P c) = 2 \/ pc (P c) = 3 -> pos (P c) + cnt (P c) + 1 <= pos (C c) + len) /\
  (pc (C c) = 2 -> pos (C c) + off (C c) < pos (P c)) /\
  (pc (P c) = 2 -> pos (P c) + off (P c) + 1 < pos (C c) + len) /\
  (* the position loaded by a reset in progress is not beyond the producer's real position either *)
  (pc (C c) = 5 -> pos (C c) <= npos (C c) <= pos (P c)).
Proof. intros len script Hl c. exact (granted_within_invx len c (exec_invx len Hl script)). Qed.

(** the literal form is false here too (same witness as for RAn.v) *)
Definition litx_witness : list (bool * cmd) := [ sP 3; sP 3; sP 3; sP 3; sP 3; sC 2; sC 2 ].
Theorem ca_plus_off_x_refuted :
  ~ (forall len script, 0 < len ->
       let c := exec_x len (init_x len) script in
       pos (C c) + off (C c) + ca (C c) <= pos (P c)).
Proof.
  intros H. specialize (H 4 litx_witness (Nat.lt_0_succ 3)). vm_compute in H. lia.
Qed.
Example litx_witness_state :
  let c := exec_x 4 (init_x 4) litx_witness in
  (pos (C c), off (C c), ca (C c), pc (C c), pos (P c)) = (4, 1, 3, 2, 7).
Proof. vm_compute. reflexivity. Qed.

(** non-vacuity.  (1) RAxvalues.v's [demo_stale] up to the consumer's first, STALE load: it sees "P at 6" while P
    is at 7: ca = 2 < 3.  (2) ... up to the producer's STALE load ("C at 4" while C is at 6): ca = 0 < 2, refused.
    (3) Detached consumer ([demo_detached] before the Sync): C is locally at 6, published 4; the producer reads
    the LATEST message and still gets ca = 0 although 2 slots are really free: it errs towards refusing. *)
Example stale_x :
  let c1 := exec_x 4 (init_x 4) (firstn 8 demo_stale) in
  let c2 := exec_x 4 (init_x 4) (firstn 12 demo_stale) in
  let c3 := exec_x 4 (init_x 4) (firstn 11 demo_detached) in
  (ca (C c1), pos (P c1) - pos (C c1), pc (C c1)) = (2, 3, 2) /\
  (ca (P c2), pos (C c2) + 4 - 1 - pos (P c2), pc (P c2)) = (0, 2, 0) /\
  (ca (P c3), pos (C c3) + 4 - 1 - pos (P c3), publishedC c3, pc (P c3)) = (0, 2, 4, 0).
Proof. vm_compute. repeat split; reflexivity. Qed.

End Extended.

Module TwoStage.
Import MRB.Conc.RA MRB.Conc.RAproof MRB.Conc.RAn MRB.Conc.RAnproof.

(* [InvN c] is [InvX (embed_n c)] (RAnproof.v): the facts about RAn.v are those about RAx.v with the consumer
   attached, where the published position is the local one. *)
Lemma ca_under_invn len c : InvN len c ->
  (pos (C c) + ca (C c) <= pos (P c) /\ off (C c) <= ca (C c)) /\
  (pos (P c) + ca (P c) + 1 <= pos (C c) + len /\ off (P c) <= ca (P c)).
Proof.
  intros I. destruct (Extended.ca_under_invx len _ (invn_invx len c I)) as (HC & H1 & H2 & H3).
  split; [exact HC | split; [exact (Nat.le_trans _ _ _ H1 (proj1 (Nat.add_le_mono_r _ _ len) H2)) | exact H3]].
Qed.

Theorem ca_under_n : forall len script, 0 < len ->
  let c := exec_n len (init_n len) script in
  (* consumer, follows the producer *)
  (pos (C c) + ca (C c) <= pos (P c) /\ off (C c) <= ca (C c)) /\
  (* producer, follows the consumer one lap ahead, one slot kept free *)
  (pos (P c) + ca (P c) + 1 <= pos (C c) + len /\ off (P c) <= ca (P c)).
Proof. intros len script Hl c. exact (ca_under_invn len c (exec_invn len Hl script)). Qed.

Corollary ca_under_n_off : forall len script, 0 < len ->
  let c := exec_n len (init_n len) script in
  pos (C c) + off (C c) + (ca (C c) - off (C c)) <= pos (P c) /\
  pos (P c) + off (P c) + (ca (P c) - off (P c)) + 1 <= pos (C c) + len.
Proof. intros len script Hl. pose proof (ca_under_n len script Hl) as H. cbv zeta in *. lia. Qed.

Corollary granted_within_n : forall len script, 0 < len ->
  let c := exec_n len (init_n len) script in
  (pc (C c) = 2 \/ pc (C c) = 3 -> pos (C c) + cnt (C c) <= pos (P c)) /\
  (pc (P c) = 2 \/ pc (P c) = 3 -> pos (P c) + cnt (P c) + 1 <= pos (C c) + len) /\
  (pc (C c) = 2 -> pos (C c) + off (C c) < pos (P c)) /\
  (pc (P c) = 2 -> pos (P c) + off (P c) + 1 < pos (C c) + len).
Proof.
  intros len script Hl c.
  destruct (Extended.granted_within_invx len _ (invn_invx len _ (exec_invn len Hl script))) as (A & B & D & E & _).
  exact (conj A (conj B (conj D E))).
Qed.

(** the literal form is false: C is granted 2 out of ca = 3 and has read one slot: pos 4, off 1, ca 3, P at 7 *)
Definition lit_witness : list (bool * nat * nat) := [ sP 3; sP 3; sP 3; sP 3; sP 3; sC 2; sC 2 ].
Theorem ca_plus_off_n_refuted :
  ~ (forall len script, 0 < len ->
       let c := exec_n len (init_n len) script in
       pos (C c) + off (C c) + ca (C c) <= pos (P c)).
Proof.
  intros H. specialize (H 4 lit_witness (Nat.lt_0_succ 3)). vm_compute in H. lia.
Qed.
Example lit_witness_state :
  let c := exec_n 4 (init_n 4) lit_witness in
  (pos (C c), off (C c), ca (C c), pc (C c), pos (P c)) = (4, 1, 3, 2, 7).
Proof. vm_compute. reflexivity. Qed.
(** and likewise for the producer: granted 2 out of ca = 3, one slot written: 4 + 1 + 3 + 1 > 4 + 4 *)
Theorem ca_plus_off_n_refuted_P :
  ~ (forall len script, 0 < len ->
       let c := exec_n len (init_n len) script in
       pos (P c) + off (P c) + ca (P c) + 1 <= pos (C c) + len).
Proof.
  intros H. specialize (H 4 [sP 2; sP 2] (Nat.lt_0_succ 3)). vm_compute in H. lia.
Qed.

(** non-vacuity.  P pushes 2 then 1 (messages: P at 6, P at 7); C reads the stale message "P at 6": ca = 2 < 3,
    and is granted its window of 2.  After C's pop, P reads the consumer's INITIAL message: ca = 0 although 2 slots
    are really free; the producer is refused. *)
Example stale_n :
  let c1 := exec_n 4 (init_n 4) [ sP 2; sP 2; sP 2; sP 2; sP 1; sP 1; sP 1; (false, 1, 2) ] in
  let c2 := exec_n 4 (init_n 4) [ sP 2; sP 2; sP 2; sP 2; sP 1; sP 1; sP 1; (false, 1, 2); sC 2; sC 2; sC 2;
                                  (true, 0, 2) ] in
  (ca (C c1), pos (P c1) - pos (C c1), pc (C c1)) = (2, 3, 2) /\
  (ca (P c2), pos (C c2) + 4 - 1 - pos (P c2), pc (P c2)) = (0, 2, 0).
Proof. vm_compute. split; reflexivity. Qed.

End TwoStage.

Print Assumptions ThreeStage.conservation_3n_any_time.
Print Assumptions ThreeStage.joined_conservation_3n.
Print Assumptions ThreeStage.joined_conservation_3n_caught_up.
Print Assumptions ThreeStage.joined_all_consumed_3n.
Print Assumptions Extended.conservation_x_any_time.
Print Assumptions Extended.joined_conservation_x.
Print Assumptions ThreeStage.ca_under_3n.
Print Assumptions ThreeStage.ca_under_3n_off.
Print Assumptions ThreeStage.granted_within_3n.
Print Assumptions ThreeStage.ca_plus_off_3n_refuted.
Print Assumptions TwoStage.ca_under_n.
Print Assumptions TwoStage.ca_under_n_off.
Print Assumptions TwoStage.granted_within_n.
Print Assumptions TwoStage.ca_plus_off_n_refuted.
Print Assumptions TwoStage.ca_plus_off_n_refuted_P.
Print Assumptions Extended.ca_under_x.
Print Assumptions Extended.ca_under_x_off.
Print Assumptions Extended.granted_within_x.
Print Assumptions Extended.ca_plus_off_x_refuted.
