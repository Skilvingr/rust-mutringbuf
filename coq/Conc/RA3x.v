(** * The three-stage release/acquire view machine with multi-slot operations, and for the WORKER and the CONSUMER
      [reset_index] (the thread jumps to the published index of the thread it follows) and DETACHED operation
      ([Detached]: local advance without publishing, [sync_index], [attach]).

    Three threads, producer P -> worker W -> consumer C; P writes slots, W edits slots in place
    (read-modify-write: a write carrying the worker's clock), C reads slots; C follows W's index, W follows P's,
    P follows C's; append-only message lists for the three index locations (value, absolute position, view);
    stale reads (a load may read any message at or after the loading thread's view and - when it is an acquire
    load - joins the view of the message read); release stores (the appended message carries the storing
    thread's view); multi-slot windows ([cnt3], [off3]); the vector-clock race detector on every slot access
    ([metas3], [race3]: last write epoch with writer id, consumer read clock).
    This is the machine the proofs are about (RA3xproof.v): RA3n.v is its restriction to [Op] commands with
    every thread attached, RA3.v the restriction of that to windows of one slot (RA3nproof.v).

    ** Script entries
    A script entry is [(thread, command)], thread in {TP, TW, TC}, with

      Inductive cmd := Op (j n : nat) | Reset (j : nat) | Detach | Attach | Sync.

    - [Op j n]   : one step of a push (P) / edit (W) / pop (C) operation: read choice [j], requested count [n]
                   (looked at only at pc 0, when an operation starts).  If the thread is in the middle of ANY
                   operation (pc <> 0, including a reset at pc 5) [Op] performs the next step of that operation
                   (j and n are then irrelevant: only steps at pc 0 load anything).
    - [Reset j], [Detach], [Attach], [Sync] are accepted by the WORKER and by the CONSUMER, only at pc 0
                   (between two operations).  Everywhere else - for the producer, or at pc <> 0 - they are
                   no-ops (the configuration is returned unchanged).

    ** Steps of an operation, all three threads ("followed index" = C's for P, P's for W, W's for C)
      pc 0, Op      check: n := max 1 (requested count); if n <= ca grant (pc := 2, cnt := n, off := 0), else
                    load the followed index (any admissible message, acquire), ca := fresh availability
                    ([pavail] for P, [dist] for W and C), and grant if n <= ca now, else stay at pc 0
      pc 2, Op      access ONE slot of the window: slot [wadd len ix off] at absolute position [pos + off]
                    (P: write, W: edit, C: read), off := off + 1, and when off = cnt go to pc 3
      pc 3, Op      ix := ix (+) cnt, pos := pos + cnt, ca := ca - cnt, pc := 0, and
                      P, attached W / C : append the message (release store, watermark = the new pos)
                      detached W / C    : nothing else - NO message is appended, the clock is not advanced
                                          ([Detached::advance] = [advance_local])
    ** Worker and consumer only
      pc 0, Reset j "pc 4", the LOAD of [reset_index]: read any admissible message m of the followed index
                    (choice j, acquire: join its view), remember it: nix := mval m, npos := mabs m; pc := 5.
                    (The load is executed by the script entry that starts the reset, so a thread never RESTS at
                    pc 4; the resting pcs are 0, 2, 3, 5.)
      pc 5, Op      the STORE of [reset_index]: ix := nix, pos := npos, ca := 0, pc := 0, and
                      attached : append the message (release store, watermark = the new pos)
                      detached : no message ([Detached::reset_index] only sets the local index)
      pc 0, Detach  det := true
      pc 0, Sync    append a message for the CURRENT local index (release store with the thread's view,
                    watermark = pos); ix, pos, ca unchanged.  ([Detached::sync_index]; also accepted while
                    attached, where it republishes the already published position - harmless.)
      pc 0, Attach  Sync, and det := false.

    A worker reset SKIPS the items between its old and its new position: they reach the consumer unedited
    (the crate's documented behaviour).  The detector does not care whether an item was edited: it checks that
    every slot access is ordered after the previous conflicting accesses of the same slot.

    While the worker is detached the consumer keeps seeing the last PUBLISHED worker index; while the consumer
    is detached the producer keeps seeing the last published consumer index.

    The thread record has the fields [det3] (detached?), [nix3], [npos3] (index / absolute position loaded by a
    reset in progress).  The producer never changes them.  (go_back / set_index of the crate are not modelled.)

    [acqP] / [acqW] / [acqC] say whether the index loads of the producer / worker / consumer (including the
    load of a reset) join the view of the message read; [exec3_x] is the machine with all three set. *)
From Coq Require Import List Arith Bool.
Import ListNotations.
Require Import MRB.Conc.RA.
Require Import MRB.Conc.RA3.

Inductive cmd := Op (j n : nat) | Reset (j : nat) | Detach | Attach | Sync.

(* The field names are those of RA3.v's thread and configuration records, which they shadow. *)
Record thr3x := mkT3x { ix3 : nat; ca3 : nat; V3 : view3; pc3 : nat; pos3 : nat; cnt3 : nat; off3 : nat;
                        det3 : bool; nix3 : nat; npos3 : nat }.
Record cfg3x := mkC3x { Mpi3 : list msg3; Mwi3 : list msg3; Mci3 : list msg3; metas3 : list meta3;
                        P3 : thr3x; W3 : thr3x; C3 : thr3x; race3 : bool }.

Definition vzero3 := mkV3 0 0 0 0 0 0 0 0 0.

Definition publishedP3 (c : cfg3x) : nat := mabs3 (last (Mpi3 c) dmsg3).
Definition publishedW3 (c : cfg3x) : nat := mabs3 (last (Mwi3 c) dmsg3).
Definition publishedC3 (c : cfg3x) : nat := mabs3 (last (Mci3 c) dmsg3).

Definition t_grant (t : thr3x) (n : nat) : thr3x :=
  mkT3x (ix3 t) (ca3 t) (V3 t) 2 (pos3 t) n 0 (det3 t) (nix3 t) (npos3 t).
Definition t_load (t : thr3x) (a : nat) (v : view3) (n : nat) : thr3x :=
  mkT3x (ix3 t) a v (if n <=? a then 2 else 0) (pos3 t) n 0 (det3 t) (nix3 t) (npos3 t).
Definition t_slot (t : thr3x) : thr3x :=
  mkT3x (ix3 t) (ca3 t) (V3 t) (if cnt3 t <=? off3 t + 1 then 3 else 2) (pos3 t) (cnt3 t) (off3 t + 1)
        (det3 t) (nix3 t) (npos3 t).
Definition t_end (t : thr3x) (ix' p' ca' : nat) (v : view3) (d : bool) : thr3x :=
  mkT3x ix' ca' v 0 p' (cnt3 t) 0 d (nix3 t) (npos3 t).
Definition t_reset (t : thr3x) (v : view3) (m : msg3) : thr3x :=
  mkT3x (ix3 t) (ca3 t) v 5 (pos3 t) (cnt3 t) (off3 t) (det3 t) (mval3 m) (mabs3 m).
Definition t_detach (t : thr3x) : thr3x :=
  mkT3x (ix3 t) (ca3 t) (V3 t) (pc3 t) (pos3 t) (cnt3 t) (off3 t) true (nix3 t) (npos3 t).

Section M3x.
Variables (acqP acqW acqC : bool).
Variable len : nat.

Definition opP3_a (j n0 : nat) (c : cfg3x) : cfg3x :=
  let t := P3 c in
  match pc3 t with
  | 0 =>
    let n := Nat.max 1 n0 in
    if n <=? ca3 t then
      mkC3x (Mpi3 c) (Mwi3 c) (Mci3 c) (metas3 c) (t_grant t n) (W3 c) (C3 c) (race3 c)
    else
      let i := pick (vci3 (V3 t)) (length (Mci3 c)) j in
      let m := nth i (Mci3 c) dmsg3 in
      let v0 := V3 t in
      let v1 := vjoin3 (mkV3 (vpi3 v0) (vwi3 v0) i (kp3 v0) (kw3 v0) (kc3 v0) (wP3 v0) (wW3 v0) (wC3 v0))
                       (if acqP then mview3 m else vzero3) in
      let a := pavail len (ix3 t) (mval3 m) in
      mkC3x (Mpi3 c) (Mwi3 c) (Mci3 c) (metas3 c) (t_load t a v1 n) (W3 c) (C3 c) (race3 c)
  | 2 =>
    let k := wadd len (ix3 t) (off3 t) in
    let mt := nth k (metas3 c) dmeta3 in
    let bad := negb (wcov TP mt (V3 t)) || negb (rclk3 mt <=? kc3 (V3 t)) in
    mkC3x (Mpi3 c) (Mwi3 c) (Mci3 c)
          (upd k (mkMeta3 TP (pos3 t + off3 t) (kp3 (V3 t)) (rpos3 mt) (rclk3 mt)) (metas3 c))
          (t_slot t) (W3 c) (C3 c) (race3 c || bad)
  | 3 =>
    let ix' := wadd len (ix3 t) (cnt3 t) in
    let p' := pos3 t + cnt3 t in
    let v0 := V3 t in
    let v1 := mkV3 (length (Mpi3 c)) (vwi3 v0) (vci3 v0) (kp3 v0) (kw3 v0) (kc3 v0) p' (wW3 v0) (wC3 v0) in
    let m := mkM3 ix' p' v1 in
    mkC3x (Mpi3 c ++ [m]) (Mwi3 c) (Mci3 c) (metas3 c)
          (t_end t ix' p' (ca3 t - cnt3 t)
                 (mkV3 (vpi3 v1) (vwi3 v1) (vci3 v1) (S (kp3 v1)) (kw3 v1) (kc3 v1) (wP3 v1) (wW3 v1) (wC3 v1))
                 (det3 t))
          (W3 c) (C3 c) (race3 c)
  | _ => c
  end.

Definition publishW (c : cfg3x) (ix' p' ca' : nat) (d : bool) : cfg3x :=
  let t := W3 c in
  let v0 := V3 t in
  let v1 := mkV3 (vpi3 v0) (length (Mwi3 c)) (vci3 v0) (kp3 v0) (kw3 v0) (kc3 v0) (wP3 v0) p' (wC3 v0) in
  let m := mkM3 ix' p' v1 in
  mkC3x (Mpi3 c) (Mwi3 c ++ [m]) (Mci3 c) (metas3 c) (P3 c)
        (t_end t ix' p' ca'
               (mkV3 (vpi3 v1) (vwi3 v1) (vci3 v1) (kp3 v1) (S (kw3 v1)) (kc3 v1) (wP3 v1) (wW3 v1) (wC3 v1)) d)
        (C3 c) (race3 c).

Definition localW (c : cfg3x) (ix' p' ca' : nat) : cfg3x :=
  let t := W3 c in
  mkC3x (Mpi3 c) (Mwi3 c) (Mci3 c) (metas3 c) (P3 c) (t_end t ix' p' ca' (V3 t) (det3 t)) (C3 c) (race3 c).

Definition finishW (c : cfg3x) (ix' p' ca' : nat) : cfg3x :=
  if det3 (W3 c) then localW c ix' p' ca' else publishW c ix' p' ca' false.

Definition opW3_a (j n0 : nat) (c : cfg3x) : cfg3x :=
  let t := W3 c in
  match pc3 t with
  | 0 =>
    let n := Nat.max 1 n0 in
    if n <=? ca3 t then
      mkC3x (Mpi3 c) (Mwi3 c) (Mci3 c) (metas3 c) (P3 c) (t_grant t n) (C3 c) (race3 c)
    else
      let i := pick (vpi3 (V3 t)) (length (Mpi3 c)) j in
      let m := nth i (Mpi3 c) dmsg3 in
      let v0 := V3 t in
      let v1 := vjoin3 (mkV3 i (vwi3 v0) (vci3 v0) (kp3 v0) (kw3 v0) (kc3 v0) (wP3 v0) (wW3 v0) (wC3 v0))
                       (if acqW then mview3 m else vzero3) in
      let a := dist len (ix3 t) (mval3 m) in
      mkC3x (Mpi3 c) (Mwi3 c) (Mci3 c) (metas3 c) (P3 c) (t_load t a v1 n) (C3 c) (race3 c)
  | 2 =>
    let k := wadd len (ix3 t) (off3 t) in
    let mt := nth k (metas3 c) dmeta3 in
    let bad := negb (wcov TW mt (V3 t)) || negb (rclk3 mt <=? kc3 (V3 t)) in
    mkC3x (Mpi3 c) (Mwi3 c) (Mci3 c)
          (upd k (mkMeta3 TW (pos3 t + off3 t) (kw3 (V3 t)) (rpos3 mt) (rclk3 mt)) (metas3 c))
          (P3 c) (t_slot t) (C3 c) (race3 c || bad)
  | 3 => finishW c (wadd len (ix3 t) (cnt3 t)) (pos3 t + cnt3 t) (ca3 t - cnt3 t)
  | 5 => finishW c (nix3 t) (npos3 t) 0
  | _ => c
  end.

Definition resetW_a (j : nat) (c : cfg3x) : cfg3x :=
  let t := W3 c in
  let i := pick (vpi3 (V3 t)) (length (Mpi3 c)) j in
  let m := nth i (Mpi3 c) dmsg3 in
  let v0 := V3 t in
  let v1 := vjoin3 (mkV3 i (vwi3 v0) (vci3 v0) (kp3 v0) (kw3 v0) (kc3 v0) (wP3 v0) (wW3 v0) (wC3 v0))
                   (if acqW then mview3 m else vzero3) in
  mkC3x (Mpi3 c) (Mwi3 c) (Mci3 c) (metas3 c) (P3 c) (t_reset t v1 m) (C3 c) (race3 c).

Definition detachW (c : cfg3x) : cfg3x :=
  mkC3x (Mpi3 c) (Mwi3 c) (Mci3 c) (metas3 c) (P3 c) (t_detach (W3 c)) (C3 c) (race3 c).

Definition publishC (c : cfg3x) (ix' p' ca' : nat) (d : bool) : cfg3x :=
  let t := C3 c in
  let v0 := V3 t in
  let v1 := mkV3 (vpi3 v0) (vwi3 v0) (length (Mci3 c)) (kp3 v0) (kw3 v0) (kc3 v0) (wP3 v0) (wW3 v0) p' in
  let m := mkM3 ix' p' v1 in
  mkC3x (Mpi3 c) (Mwi3 c) (Mci3 c ++ [m]) (metas3 c) (P3 c) (W3 c)
        (t_end t ix' p' ca'
               (mkV3 (vpi3 v1) (vwi3 v1) (vci3 v1) (kp3 v1) (kw3 v1) (S (kc3 v1)) (wP3 v1) (wW3 v1) (wC3 v1)) d)
        (race3 c).

Definition localC (c : cfg3x) (ix' p' ca' : nat) : cfg3x :=
  let t := C3 c in
  mkC3x (Mpi3 c) (Mwi3 c) (Mci3 c) (metas3 c) (P3 c) (W3 c) (t_end t ix' p' ca' (V3 t) (det3 t)) (race3 c).

Definition finishC (c : cfg3x) (ix' p' ca' : nat) : cfg3x :=
  if det3 (C3 c) then localC c ix' p' ca' else publishC c ix' p' ca' false.

Definition opC3_a (j n0 : nat) (c : cfg3x) : cfg3x :=
  let t := C3 c in
  match pc3 t with
  | 0 =>
    let n := Nat.max 1 n0 in
    if n <=? ca3 t then
      mkC3x (Mpi3 c) (Mwi3 c) (Mci3 c) (metas3 c) (P3 c) (W3 c) (t_grant t n) (race3 c)
    else
      let i := pick (vwi3 (V3 t)) (length (Mwi3 c)) j in
      let m := nth i (Mwi3 c) dmsg3 in
      let v0 := V3 t in
      let v1 := vjoin3 (mkV3 (vpi3 v0) i (vci3 v0) (kp3 v0) (kw3 v0) (kc3 v0) (wP3 v0) (wW3 v0) (wC3 v0))
                       (if acqC then mview3 m else vzero3) in
      let a := dist len (ix3 t) (mval3 m) in
      mkC3x (Mpi3 c) (Mwi3 c) (Mci3 c) (metas3 c) (P3 c) (W3 c) (t_load t a v1 n) (race3 c)
  | 2 =>
    let k := wadd len (ix3 t) (off3 t) in
    let mt := nth k (metas3 c) dmeta3 in
    let bad := negb (wcov TC mt (V3 t)) in
    mkC3x (Mpi3 c) (Mwi3 c) (Mci3 c)
          (upd k (mkMeta3 (wt mt) (wpos3 mt) (wclk3 mt) (pos3 t + off3 t) (kc3 (V3 t))) (metas3 c))
          (P3 c) (W3 c) (t_slot t) (race3 c || bad)
  | 3 => finishC c (wadd len (ix3 t) (cnt3 t)) (pos3 t + cnt3 t) (ca3 t - cnt3 t)
  | 5 => finishC c (nix3 t) (npos3 t) 0
  | _ => c
  end.

Definition resetC_a (j : nat) (c : cfg3x) : cfg3x :=
  let t := C3 c in
  let i := pick (vwi3 (V3 t)) (length (Mwi3 c)) j in
  let m := nth i (Mwi3 c) dmsg3 in
  let v0 := V3 t in
  let v1 := vjoin3 (mkV3 (vpi3 v0) i (vci3 v0) (kp3 v0) (kw3 v0) (kc3 v0) (wP3 v0) (wW3 v0) (wC3 v0))
                   (if acqC then mview3 m else vzero3) in
  mkC3x (Mpi3 c) (Mwi3 c) (Mci3 c) (metas3 c) (P3 c) (W3 c) (t_reset t v1 m) (race3 c).

Definition detachC (c : cfg3x) : cfg3x :=
  mkC3x (Mpi3 c) (Mwi3 c) (Mci3 c) (metas3 c) (P3 c) (W3 c) (t_detach (C3 c)) (race3 c).

Definition stepP3_a (k : cmd) (c : cfg3x) : cfg3x :=
  match k with
  | Op j n => opP3_a j n c
  | _ => c
  end.

Definition stepW3_a (k : cmd) (c : cfg3x) : cfg3x :=
  let t := W3 c in
  match k with
  | Op j n => opW3_a j n c
  | Reset j => match pc3 t with 0 => resetW_a j c | _ => c end
  | Detach  => match pc3 t with 0 => detachW c | _ => c end
  | Attach  => match pc3 t with 0 => publishW c (ix3 t) (pos3 t) (ca3 t) false | _ => c end
  | Sync    => match pc3 t with 0 => publishW c (ix3 t) (pos3 t) (ca3 t) (det3 t) | _ => c end
  end.

Definition stepC3_a (k : cmd) (c : cfg3x) : cfg3x :=
  let t := C3 c in
  match k with
  | Op j n => opC3_a j n c
  | Reset j => match pc3 t with 0 => resetC_a j c | _ => c end
  | Detach  => match pc3 t with 0 => detachC c | _ => c end
  | Attach  => match pc3 t with 0 => publishC c (ix3 t) (pos3 t) (ca3 t) false | _ => c end
  | Sync    => match pc3 t with 0 => publishC c (ix3 t) (pos3 t) (ca3 t) (det3 t) | _ => c end
  end.

Definition step3_a (c : cfg3x) (s : tid * cmd) : cfg3x :=
  match fst s with
  | TP => stepP3_a (snd s) c
  | TW => stepW3_a (snd s) c
  | TC => stepC3_a (snd s) c
  end.
Definition exec3_a (c : cfg3x) (script : list (tid * cmd)) : cfg3x := fold_left step3_a script c.

(* All three threads start at absolute position [len] (so that "one lap earlier" never underflows); slot k was last "written" by nobody
   that matters (writer id TC: always covered) and read at position k with clock 0.  All threads start
   attached. *)
Definition init3_x : cfg3x :=
  mkC3x [mkM3 0 len (vinit len 0 0 0)] [mkM3 0 len (vinit len 0 0 0)] [mkM3 0 len (vinit len 0 0 0)]
        (map (fun k => mkMeta3 TC k 0 k 0) (seq 0 len))
        (mkT3x 0 0 (vinit len 1 0 0) 0 len 0 0 false 0 0) (mkT3x 0 0 (vinit len 0 1 0) 0 len 0 0 false 0 0)
        (mkT3x 0 0 (vinit len 0 0 1) 0 len 0 0 false 0 0) false.

End M3x.

Definition stepP3_x := stepP3_a true.
Definition stepW3_x := stepW3_a true.
Definition stepC3_x := stepC3_a true.
Definition step3_x := step3_a true true true.
Definition exec3_x := exec3_a true true true.

(* Examples, len = 4 (capacity 3).  Read choice 99 = always the latest message. *)
Definition sP (n : nat) : tid * cmd := (TP, Op 99 n).
Definition sW (n : nat) : tid * cmd := (TW, Op 99 n).
Definition sC (n : nat) : tid * cmd := (TC, Op 99 n).
Definition kW (k : cmd) : tid * cmd := (TW, k).
Definition kC (k : cmd) : tid * cmd := (TC, k).

(* (race, P: (ix, pos, ca, pc), W: (ix, pos, ca, pc, det), C: (ix, pos, ca, pc, det),
    (position published by W, position published by C)) *)
Definition summary3 (c : cfg3x) :=
  (race3 c, (ix3 (P3 c), pos3 (P3 c), ca3 (P3 c), pc3 (P3 c)),
            (ix3 (W3 c), pos3 (W3 c), ca3 (W3 c), pc3 (W3 c), det3 (W3 c)),
            (ix3 (C3 c), pos3 (C3 c), ca3 (C3 c), pc3 (C3 c), det3 (C3 c)),
            (publishedW3 c, publishedC3 c)).

(* With [Op] commands only the machine is RA3n.v's: the demo script of RA3n.v gives the same result. *)
Definition demo3 : list (tid * cmd) :=
  [ sP 3; sP 3; sP 3; sP 3; sP 3;
    sW 2; sW 2; sW 2; sW 2;
    sC 2; sC 2; sC 2; sC 2;
    sP 2; sW 1; sP 2; sW 1; sP 2; sW 1; sP 2;
    sW 2; sW 2; sW 2; sW 2;
    sC 3; sC 3; sC 3; sC 3; sC 3 ].
Example demo3_race_free :
  summary3 (exec3_x 4 (init3_x 4) demo3)
  = (false, (1, 9, 0, 0), (1, 9, 0, 0, false), (1, 9, 0, 0, false), (9, 9)).
Proof. vm_compute. reflexivity. Qed.

Definition demo_wdet : list (tid * cmd) :=
  [ sP 3; sP 3; sP 3; sP 3; sP 3;          (* P: load+grant 3, write slots 0,1,2, publish       -> pos 7 *)
    kW Detach;
    sW 1; sW 1; sW 1;                      (* W: load+grant 1, edit slot 0, LOCAL advance       -> pos 5 *)
    sW 2; sW 2; sW 2; sW 2;                (* W: grant 2 from ca, edit slots 1,2, LOCAL advance -> pos 7 *)
    sC 1;                                  (* C: load: W still at 4, nothing to pop, no grant            *)
    kW Sync;                               (* W: publish 7                                               *)
    sC 3; sC 3; sC 3; sC 3; sC 3;          (* C: load+grant 3, read slots 0,1,2, publish        -> pos 7 *)
    sP 3; sP 3; sP 3; sP 3; sP 3;          (* P: load+grant 3, write slots 3,0,1, publish       -> pos 10 *)
    sW 1; sW 1; sW 1;                      (* W: load+grant 1, edit slot 3, local advance       -> pos 8 *)
    kW Attach;                             (* W: publish 8, attached again                               *)
    sW 2; sW 2; sW 2; sW 2;                (* W: grant 2 from ca, edit slots 0,1, publish       -> pos 10 *)
    sC 3; sC 3; sC 3; sC 3; sC 3 ].        (* C: load+grant 3, read slots 3,0,1, publish        -> pos 10 *)

Example demo_wdet_blocked :   (* before the sync: W is at 7 locally, 4 is published, C got nothing *)
  summary3 (exec3_x 4 (init3_x 4) (firstn 14 demo_wdet))
  = (false, (3, 7, 0, 0), (3, 7, 0, 0, true), (0, 4, 0, 0, false), (4, 4)).
Proof. vm_compute. reflexivity. Qed.
Example demo_wdet_synced :    (* after the sync and C's pop *)
  summary3 (exec3_x 4 (init3_x 4) (firstn 20 demo_wdet))
  = (false, (3, 7, 0, 0), (3, 7, 0, 0, true), (3, 7, 0, 0, false), (7, 7)).
Proof. vm_compute. reflexivity. Qed.
Example demo_wdet_attach :    (* just after Attach: 8 published, W attached, 2 more items remembered *)
  summary3 (exec3_x 4 (init3_x 4) (firstn 29 demo_wdet))
  = (false, (2, 10, 0, 0), (0, 8, 2, 0, false), (3, 7, 0, 0, false), (8, 7)).
Proof. vm_compute. reflexivity. Qed.
Example demo_wdet_race_free :
  summary3 (exec3_x 4 (init3_x 4) demo_wdet)
  = (false, (2, 10, 0, 0), (2, 10, 0, 0, false), (2, 10, 0, 0, false), (10, 10)).
Proof. vm_compute. reflexivity. Qed.

(* The same script with a Relaxed load (no join) of the consumer / the worker / the producer races. *)
Example demo_wdet_consumer_relaxed_races : race3 (exec3_a true true false 4 (init3_x 4) demo_wdet) = true.
Proof. vm_compute. reflexivity. Qed.
Example demo_wdet_worker_relaxed_races : race3 (exec3_a true false true 4 (init3_x 4) demo_wdet) = true.
Proof. vm_compute. reflexivity. Qed.
Example demo_wdet_producer_relaxed_races : race3 (exec3_a false true true 4 (init3_x 4) demo_wdet) = true.
Proof. vm_compute. reflexivity. Qed.

(* Reset while detached: the worker's local index jumps, nothing is published (C stays blocked) until the sync. *)
Example demo_wdet_reset :
  summary3 (exec3_x 4 (init3_x 4) (firstn 6 demo_wdet ++ [kW (Reset 99); sW 0; sC 1]))
  = (false, (3, 7, 0, 0), (3, 7, 0, 0, true), (0, 4, 0, 0, false), (4, 4)).
Proof. vm_compute. reflexivity. Qed.
Example demo_wdet_reset_sync :   (* ... then Sync: C pops the three UNEDITED items *)
  summary3 (exec3_x 4 (init3_x 4)
              (firstn 6 demo_wdet ++ [kW (Reset 99); sW 0; sC 1; kW Sync; sC 3; sC 3; sC 3; sC 3; sC 3]))
  = (false, (3, 7, 0, 0), (3, 7, 0, 0, true), (3, 7, 0, 0, false), (7, 7)).
Proof. vm_compute. reflexivity. Qed.

Definition demo_wreset : list (tid * cmd) :=
  [ sP 3; sP 3; sP 3; sP 3; sP 3;          (* P: load+grant 3, write slots 0,1,2, publish       -> pos 7 *)
    sW 1; sW 1; sW 1;                      (* W: load+grant 1, edit slot 0, publish             -> pos 5 *)
    sC 1; sC 1; sC 1;                      (* C: load+grant 1, read slot 0, publish             -> pos 5 *)
    sP 1;                                  (* P: load (C at 5): 1 free slot, grant                       *)
    kW (Reset 99);                         (* W: reset, the load: sees P at 7                            *)
    sP 1; sP 1;                            (* P: write slot 3 (pos 7), publish                  -> pos 8 *)
    sW 0;                                  (* W: reset, the store: ix 3, pos 7 published (5, 6 skipped)  *)
    sC 2; sC 2; sC 2; sC 2;                (* C: load+grant 2, read slots 1,2 (unedited), publish -> pos 7 *)
    sP 2; sP 2; sP 2; sP 2;                (* P: load (C at 7): 2 free, write slots 0,1, publish -> pos 10 *)
    sW 3; sW 3; sW 3; sW 3; sW 3;          (* W: load+grant 3, edit slots 3,0,1, publish        -> pos 10 *)
    sC 3; sC 3; sC 3; sC 3; sC 3 ].        (* C: load+grant 3, read slots 3,0,1, publish        -> pos 10 *)

Example demo_wreset_mid :   (* just after the reset: W at 7 = what it published; P at 8; C at 5 *)
  summary3 (exec3_x 4 (init3_x 4) (firstn 16 demo_wreset))
  = (false, (0, 8, 0, 0), (3, 7, 0, 0, false), (1, 5, 0, 0, false), (7, 5)).
Proof. vm_compute. reflexivity. Qed.
Example demo_wreset_skipped_popped :   (* C has popped the two skipped items *)
  summary3 (exec3_x 4 (init3_x 4) (firstn 20 demo_wreset))
  = (false, (0, 8, 0, 0), (3, 7, 0, 0, false), (3, 7, 0, 0, false), (7, 7)).
Proof. vm_compute. reflexivity. Qed.
Example demo_wreset_race_free :
  summary3 (exec3_x 4 (init3_x 4) demo_wreset)
  = (false, (2, 10, 0, 0), (2, 10, 0, 0, false), (2, 10, 0, 0, false), (10, 10)).
Proof. vm_compute. reflexivity. Qed.

(* A reset with a stale read choice reads the oldest message it may (the one at the thread's view); that is
   never behind the local index: here W has seen P at 7 and edited up to 5, the "stale" reset takes it to 7. *)
Example demo_wreset_stale :
  summary3 (exec3_x 4 (init3_x 4) (firstn 8 demo_wreset ++ [kW (Reset 0); sW 0]))
  = (false, (3, 7, 0, 0), (3, 7, 0, 0, false), (0, 4, 0, 0, false), (7, 4)).
Proof. vm_compute. reflexivity. Qed.

(* The same script with Relaxed loads (no join) of the worker / the consumer / the producer races. *)
Example demo_wreset_worker_relaxed_races : race3 (exec3_a true false true 4 (init3_x 4) demo_wreset) = true.
Proof. vm_compute. reflexivity. Qed.
Example demo_wreset_consumer_relaxed_races : race3 (exec3_a true true false 4 (init3_x 4) demo_wreset) = true.
Proof. vm_compute. reflexivity. Qed.
Example demo_wreset_producer_relaxed_races : race3 (exec3_a false true true 4 (init3_x 4) demo_wreset) = true.
Proof. vm_compute. reflexivity. Qed.

(* The load of the worker's RESET must be Acquire even if the worker never touches a slot: W only resets
   (skipping all three items) and C pops them.  With acquire loads this is race free - C's view of P's writes
   comes through W's message; with a Relaxed worker load W publishes 7 with a view that does not cover P's
   writes of the skipped items, and C's first read (entry 9 of the script) races with P's write. *)
Definition demo_wreset_only : list (tid * cmd) :=
  [ sP 3; sP 3; sP 3; sP 3; sP 3; kW (Reset 99); sW 0; sC 3; sC 3 ].
Example demo_wreset_only_race_free : race3 (exec3_x 4 (init3_x 4) demo_wreset_only) = false.
Proof. vm_compute. reflexivity. Qed.
Example demo_wreset_only_relaxed_no_race_yet :
  race3 (exec3_a true false true 4 (init3_x 4) (firstn 8 demo_wreset_only)) = false.
Proof. vm_compute. reflexivity. Qed.
Example demo_wreset_only_relaxed_races :
  race3 (exec3_a true false true 4 (init3_x 4) demo_wreset_only) = true.
Proof. vm_compute. reflexivity. Qed.

Definition demo_creset : list (tid * cmd) :=
  [ sP 3; sP 3; sP 3; sP 3; sP 3;          (* P: load+grant 3, write slots 0,1,2, publish       -> pos 7 *)
    sW 2; sW 2; sW 2; sW 2;                (* W: load+grant 2, edit slots 0,1, publish          -> pos 6 *)
    sC 1; sC 1; sC 1;                      (* C: load+grant 1, read slot 0, publish             -> pos 5 *)
    sW 1;                                  (* W: grant 1 from ca                                          *)
    kC (Reset 99);                         (* C: reset, the load: sees W at 6                            *)
    sW 1; sW 1;                            (* W: edit slot 2 (pos 6), publish                   -> pos 7 *)
    sC 0;                                  (* C: reset, the store: ix 2, pos 6 published (5 skipped)     *)
    sP 2; sP 2; sP 2; sP 2;                (* P: load (C at 6): 2 free, write slots 3,0, publish -> pos 9 *)
    sC 1; sC 1; sC 1 ].                    (* C: load+grant 1, read slot 2, publish             -> pos 7 *)

Example demo_creset_mid :
  summary3 (exec3_x 4 (init3_x 4) (firstn 17 demo_creset))
  = (false, (3, 7, 0, 0), (3, 7, 0, 0, false), (2, 6, 0, 0, false), (7, 6)).
Proof. vm_compute. reflexivity. Qed.
Example demo_creset_race_free :
  summary3 (exec3_x 4 (init3_x 4) demo_creset)
  = (false, (1, 9, 0, 0), (3, 7, 0, 0, false), (3, 7, 0, 0, false), (7, 7)).
Proof. vm_compute. reflexivity. Qed.
Example demo_creset_producer_relaxed_races : race3 (exec3_a false true true 4 (init3_x 4) demo_creset) = true.
Proof. vm_compute. reflexivity. Qed.

(* Detached consumer.
   P pushes 3, W edits 3.  C detaches and pops 2 (local index 6, 4 published).  P still sees C at 4: no free slot.
   C syncs (publishes 6); P gets 2 slots (positions 7,8 = slots 3,0), W edits them; C pops 1 (detached),
   attaches (publishes 7), pops 2 more. *)
Definition demo_cdet : list (tid * cmd) :=
  [ sP 3; sP 3; sP 3; sP 3; sP 3;
    sW 3; sW 3; sW 3; sW 3; sW 3;
    kC Detach;
    sC 2; sC 2; sC 2; sC 2;
    sP 2;
    kC Sync;
    sP 2; sP 2; sP 2; sP 2;
    sW 2; sW 2; sW 2; sW 2;
    sC 1; sC 1; sC 1;
    kC Attach;
    sC 2; sC 2; sC 2; sC 2 ].

Example demo_cdet_blocked :   (* before the sync: C is at 6 locally, 4 is published, P got nothing *)
  summary3 (exec3_x 4 (init3_x 4) (firstn 16 demo_cdet))
  = (false, (3, 7, 0, 0), (3, 7, 0, 0, false), (2, 6, 1, 0, true), (7, 4)).
Proof. vm_compute. reflexivity. Qed.
Example demo_cdet_race_free :
  summary3 (exec3_x 4 (init3_x 4) demo_cdet)
  = (false, (1, 9, 0, 0), (1, 9, 0, 0, false), (1, 9, 0, 0, false), (9, 9)).
Proof. vm_compute. reflexivity. Qed.
Example demo_cdet_producer_relaxed_races : race3 (exec3_a false true true 4 (init3_x 4) demo_cdet) = true.
Proof. vm_compute. reflexivity. Qed.
