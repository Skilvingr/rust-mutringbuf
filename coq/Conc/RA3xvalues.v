(** * What the consumer reads on the three-stage release/acquire machine RA3x.v.

    Values are threaded alongside the machine.  With [fr t = pos t + off t] the absolute position of the slot a
    thread accesses next and [slot t = wadd len (ix t) (off t)] its ring slot:
    - the producer's per-slot write step (pc 2) stores [pv (fr P)] into [slot P] of the value array [vals];
    - the worker's per-slot edit step (pc 2) replaces the content x of [slot W] by [f x] and appends the absolute
      position [fr W] it believes it is editing to the ghost list [wlog];
    - the consumer's per-slot read step (pc 2) appends the content of [slot C] to [clog] and the absolute
      position [fr C] it believes it is reading to [plog].
    The slots initially hold arbitrary values [init k].  No other step touches the value state.

    The value invariant [VI] speaks of the slot metadata, the three frontiers and the value state only; of the
    race-freedom invariant it needs the order of the frontiers.  A worker reset moves the worker's frontier
    forwards over positions that keep the producer's write, a consumer reset moves the consumer's ([VI_jump]). *)
From Coq Require Import List Arith Lia Bool Sorted.
Import ListNotations.
Require Import MRB.Conc.RA MRB.Conc.RA3 MRB.Conc.RA3proof MRB.Conc.RA3x MRB.Conc.RA3xproof.


(* value array, the consumer's log of values, the consumer's log of (believed) absolute positions, the worker's
   ghost log of (believed) absolute positions it has edited *)
Record vst := mkVst { vals : list nat; clog : list nat; plog : list nat; wlog : list nat }.

Definition edited (wl : list nat) (p : nat) : bool := existsb (Nat.eqb p) wl.

Lemma edited_snoc wl q p : edited (wl ++ [q]) p = edited wl p || (p =? q).
Proof. unfold edited. rewrite existsb_app. cbn [existsb]. rewrite orb_false_r. reflexivity. Qed.

Lemma edited_app wl l p : edited (wl ++ l) p = edited wl p || edited l p.
Proof. unfold edited. apply existsb_app. Qed.

Lemma edited_above wl b p : Forall (fun q => q < b) wl -> b <= p -> edited wl p = false.
Proof.
  intros F Hp. unfold edited. induction F as [|q l Hq F IH]; cbn [existsb]; [reflexivity|].
  apply orb_false_iff. split; [apply Nat.eqb_neq; lia | exact IH].
Qed.

Lemma edited_below l b p : Forall (fun q => b <= q) l -> p < b -> edited l p = false.
Proof.
  intros F Hp. unfold edited. induction F as [|q l Hq F IH]; cbn [existsb]; [reflexivity|].
  apply orb_false_iff. split; [apply Nat.eqb_neq; lia | exact IH].
Qed.

Lemma edited_seq lo n p : lo <= p < lo + n -> edited (seq lo n) p = true.
Proof.
  intros Hp. unfold edited. apply existsb_exists. exists p. split; [apply in_seq; exact Hp | apply Nat.eqb_refl].
Qed.

Lemma seq_snoc_front lo q : lo <= q -> seq lo (q - lo) ++ [q] = seq lo (q + 1 - lo).
Proof.
  intros H. replace (q + 1 - lo) with (S (q - lo)) by lia. rewrite seq_S. f_equal. f_equal. lia.
Qed.

Section Values3x.
Variable len : nat.
Hypothesis Hlen : 0 < len.
Variables (pv f init : nat -> nat).

Definition fr (t : thr3x) : nat := pos3 t + off3 t.
Definition slot (t : thr3x) : nat := wadd len (ix3 t) (off3 t).

(* [c] is the configuration BEFORE the machine step *)
Definition vstep (c : cfg3x) (s : tid * cmd) (v : vst) : vst :=
  match snd s with
  | Op _ _ =>
    match fst s with
    | TP => if pc3 (P3 c) =? 2
            then mkVst (upd (slot (P3 c)) (pv (fr (P3 c))) (vals v)) (clog v) (plog v) (wlog v)
            else v
    | TW => if pc3 (W3 c) =? 2
            then mkVst (upd (slot (W3 c)) (f (nth (slot (W3 c)) (vals v) 0)) (vals v)) (clog v) (plog v)
                       (wlog v ++ [fr (W3 c)])
            else v
    | TC => if pc3 (C3 c) =? 2
            then mkVst (vals v) (clog v ++ [nth (slot (C3 c)) (vals v) 0]) (plog v ++ [fr (C3 c)]) (wlog v)
            else v
    end
  | _ => v
  end.

Fixpoint vexec (c : cfg3x) (v : vst) (script : list (tid * cmd)) : cfg3x * vst :=
  match script with
  | [] => (c, v)
  | s :: r => vexec (step3_x len c s) (vstep c s v) r
  end.

Definition vinit0 : vst := mkVst (map init (seq 0 len)) [] [] [].

Lemma vexec_fst script : forall c v, fst (vexec c v script) = exec3_x len c script.
Proof.
  induction script as [|s r IH]; intros c v; [reflexivity|].
  cbn [vexec]. rewrite IH. reflexivity.
Qed.

Lemma vexec_app s1 s2 : forall c v,
  vexec c v (s1 ++ s2) = vexec (fst (vexec c v s1)) (snd (vexec c v s1)) s2.
Proof.
  induction s1 as [|s r IH]; intros c v; [reflexivity|].
  cbn [app vexec]. apply IH.
Qed.

(* what the consumer must find at position p, given the worker's log *)
Definition expect (wl : list nat) (p : nat) : nat := if edited wl p then f (pv p) else pv p.

(* the value a slot holds, from the race detector's record of its last write *)
Definition val_of (m : meta3) : nat :=
  match wt m with TP => pv (wpos3 m) | TW => f (pv (wpos3 m)) | TC => init (wpos3 m) end.

(* over the slot metadata [ms], the frontiers [a] (producer), [b] (worker), [d] (consumer) and the value state *)
Record VI (ms : list meta3) (a b d : nat) (v : vst) : Prop := mkVI {
  v_len : length (vals v) = len;
  
  v_val : forall k, k < len -> nth k (vals v) 0 = val_of (nth k ms dmeta3);
  (* below the worker's frontier, not yet read: last written at exactly that position,
     by the worker iff the worker's log has the position, by the producer otherwise (skipped by a reset) *)
  v_e1 : forall p, d <= p < b ->
           wpos3 (nth (p mod len) ms dmeta3) = p /\
           ((wt (nth (p mod len) ms dmeta3) = TW /\ edited (wlog v) p = true) \/
            (wt (nth (p mod len) ms dmeta3) = TP /\ edited (wlog v) p = false));
  (* pushed, not yet reached by the worker: last written by the producer at exactly that position *)
  v_e2 : forall p, b <= p < a ->
           wpos3 (nth (p mod len) ms dmeta3) = p /\ wt (nth (p mod len) ms dmeta3) = TP;
  v_wsrt : StronglySorted lt (wlog v);
  v_wbd : Forall (fun p => len <= p < b) (wlog v);
  v_psrt : StronglySorted lt (plog v);
  v_pbd : Forall (fun p => len <= p < d) (plog v);
  v_log : clog v = map (expect (wlog v)) (plog v);
  v_pos : len <= d
}.

Definition VInv (c : cfg3x) (v : vst) : Prop :=
  VI (metas3 c) (fr (P3 c)) (fr (W3 c)) (fr (C3 c)) v.

Lemma wbd_lt (b : nat) (wl : list nat) : Forall (fun p => len <= p < b) wl -> Forall (fun q => q < b) wl.
Proof. intros F. eapply Forall_impl; [|exact F]. cbv beta. intros q Hq. lia. Qed.

Lemma VI_P ms a b d v k0 x y z :
  VI ms a b d v -> length ms = len -> d <= b -> b <= a -> a + 1 <= d + len -> k0 = a mod len ->
  VI (upd k0 (mkMeta3 TP a x y z) ms) (a + 1) b d
     (mkVst (upd k0 (pv a) (vals v)) (clog v) (plog v) (wlog v)).
Proof.
  intros [VL VV E1 E2 WS WB PS PB LG VP] LM Hdb Hba Hcap Ek. subst k0.
  assert (Hk : a mod len < len) by (apply Nat.mod_upper_bound; lia).
  constructor; cbn [vals clog plog wlog].
  - rewrite upd_length. exact VL.
  - intros k Hk'. destruct (Nat.eq_dec (a mod len) k) as [Ek|Hne].
    + subst k.
      rewrite nth_upd_eq by (rewrite VL; exact Hk).
      rewrite nth_upd_eq by (rewrite LM; exact Hk).
      reflexivity.
    + rewrite nth_upd_neq by exact Hne. rewrite nth_upd_neq by exact Hne. apply VV. exact Hk'.
  - intros p Hp. destruct (Nat.eq_dec (a mod len) (p mod len)) as [E|Hne].
    + exfalso. assert (Hap : a = p) by (apply (Ring.congr_eq len); [exact Hlen | exact E | lia | lia]). lia.
    + rewrite nth_upd_neq by exact Hne. apply E1. exact Hp.
  - intros p Hp. destruct (Nat.eq_dec (a mod len) (p mod len)) as [E|Hne].
    + assert (Hap : a = p) by (apply (Ring.congr_eq len); [exact Hlen | exact E | lia | lia]). subst p.
      rewrite nth_upd_eq by (rewrite LM; exact Hk). cbn [wt wpos3]. split; reflexivity.
    + rewrite nth_upd_neq by exact Hne. apply E2.
      assert (Hpa : p <> a) by (intros Epa; apply Hne; rewrite Epa; reflexivity). lia.
  - exact WS.
  - exact WB.
  - exact PS.
  - exact PB.
  - exact LG.
  - exact VP.
Qed.

Lemma VI_W ms a b d v k0 x y z :
  VI ms a b d v -> length ms = len -> d <= b -> b < a -> a <= d + len -> k0 = b mod len ->
  VI (upd k0 (mkMeta3 TW b x y z) ms) a (b + 1) d
     (mkVst (upd k0 (f (nth k0 (vals v) 0)) (vals v)) (clog v) (plog v) (wlog v ++ [b])).
Proof.
  intros [VL VV E1 E2 WS WB PS PB LG VP] LM Hdb Hba Hcap Ek. subst k0.
  assert (Hk : b mod len < len) by (apply Nat.mod_upper_bound; lia).
  assert (Cur : wpos3 (nth (b mod len) ms dmeta3) = b /\ wt (nth (b mod len) ms dmeta3) = TP) by (apply E2; lia).
  destruct Cur as [CP CW].
  constructor; cbn [vals clog plog wlog].
  - rewrite upd_length. exact VL.
  - intros k Hk'. destruct (Nat.eq_dec (b mod len) k) as [Ek|Hne].
    + subst k.
      rewrite nth_upd_eq by (rewrite VL; exact Hk).
      rewrite nth_upd_eq by (rewrite LM; exact Hk).
      rewrite VV by exact Hk. unfold val_of. rewrite CW, CP. reflexivity.
    + rewrite nth_upd_neq by exact Hne. rewrite nth_upd_neq by exact Hne. apply VV. exact Hk'.
  - intros p Hp. destruct (Nat.eq_dec (b mod len) (p mod len)) as [E|Hne].
    + assert (Hbp : b = p) by (apply (Ring.congr_eq len); [exact Hlen | exact E | lia | lia]). subst p.
      rewrite nth_upd_eq by (rewrite LM; exact Hk). cbn [wt wpos3]. split; [reflexivity|].
      left. split; [reflexivity|]. rewrite edited_snoc, Nat.eqb_refl. apply orb_true_r.
    + rewrite nth_upd_neq by exact Hne.
      assert (Hpb : p <> b) by (intros Epb; apply Hne; rewrite Epb; reflexivity).
      assert (Hq : (p =? b) = false) by (apply Nat.eqb_neq; exact Hpb).
      destruct (E1 p) as [Ep [[Et Ee]|[Et Ee]]]; [lia | | ]; (split; [exact Ep|]).
      * left. split; [exact Et|]. rewrite edited_snoc, Ee. reflexivity.
      * right. split; [exact Et|]. rewrite edited_snoc, Ee, Hq. reflexivity.
  - intros p Hp. destruct (Nat.eq_dec (b mod len) (p mod len)) as [E|Hne].
    + exfalso. assert (Hbp : b = p) by (apply (Ring.congr_eq len); [exact Hlen | exact E | lia | lia]). lia.
    + rewrite nth_upd_neq by exact Hne. apply E2. lia.
  - apply ssorted_snoc; [exact WS | apply (wbd_lt b); exact WB].
  - apply Forall_app. split.
    + eapply Forall_impl; [|exact WB]. cbv beta. intros q Hq. lia.
    + constructor; [lia | constructor].
  - exact PS.
  - exact PB.
  - rewrite LG. apply map_ext_in. intros p Hp.
    rewrite Forall_forall in PB. specialize (PB p Hp). cbv beta in PB.
    unfold expect. rewrite edited_snoc.
    assert (Hq : (p =? b) = false) by (apply Nat.eqb_neq; lia).
    rewrite Hq, orb_false_r. reflexivity.
  - exact VP.
Qed.

Lemma VI_cur ms a b d v p : VI ms a b d v -> d <= p < b -> nth (p mod len) (vals v) 0 = expect (wlog v) p.
Proof.
  intros [VL VV E1 E2 WS WB PS PB LG VP] Hp.
  assert (Hk : p mod len < len) by (apply Nat.mod_upper_bound; lia).
  rewrite VV by exact Hk. unfold val_of, expect.
  destruct (E1 p Hp) as [Ep [[Et Ee]|[Et Ee]]]; rewrite Et, Ep, Ee; reflexivity.
Qed.

Lemma VI_C ms a b d v k0 x y :
  VI ms a b d v -> length ms = len -> d < b -> k0 = d mod len ->
  VI (upd k0 (mkMeta3 (wt (nth k0 ms dmeta3)) (wpos3 (nth k0 ms dmeta3)) (wclk3 (nth k0 ms dmeta3)) x y) ms)
     a b (d + 1) (mkVst (vals v) (clog v ++ [nth k0 (vals v) 0]) (plog v ++ [d]) (wlog v)).
Proof.
  intros V LM Hdb Ek. subst k0.
  pose proof (VI_cur ms a b d v d V) as Cur.
  destruct V as [VL VV E1 E2 WS WB PS PB LG VP].
  assert (Hk : d mod len < len) by (apply Nat.mod_upper_bound; lia).
  set (ms' := upd (d mod len) _ ms).
  assert (Hsame : forall k, wt (nth k ms' dmeta3) = wt (nth k ms dmeta3) /\
                            wpos3 (nth k ms' dmeta3) = wpos3 (nth k ms dmeta3)).
  { intros k. unfold ms'. destruct (Nat.eq_dec (d mod len) k) as [Ek|Hne].
    - subst k. rewrite nth_upd_eq by (rewrite LM; exact Hk). cbn [wt wpos3]. split; reflexivity.
    - rewrite nth_upd_neq by exact Hne. split; reflexivity. }
  constructor; cbn [vals clog plog wlog].
  - exact VL.
  - intros k Hk'. rewrite VV by exact Hk'. unfold val_of.
    destruct (Hsame k) as [Hw Hp]. rewrite Hw, Hp. reflexivity.
  - intros p Hp. destruct (Hsame (p mod len)) as [Hw Hq]. rewrite Hw, Hq. apply E1. lia.
  - intros p Hp. destruct (Hsame (p mod len)) as [Hw Hq]. rewrite Hw, Hq. apply E2. exact Hp.
  - exact WS.
  - exact WB.
  - apply ssorted_snoc; [exact PS|]. eapply Forall_impl; [|exact PB]. cbv beta. intros q Hq. lia.
  - apply Forall_app. split.
    + eapply Forall_impl; [|exact PB]. cbv beta. intros q Hq. lia.
    + constructor; [lia | constructor].
  - rewrite map_app, LG. cbn [map]. f_equal. f_equal. apply Cur. lia.
  - lia.
Qed.

(** resets: the positions a worker reset skips keep the producer's write and are not in the worker's log *)
Lemma VI_jump ms a b d v b' d' :
  VI ms a b d v -> b <= b' -> b' <= a -> d <= d' -> VI ms a b' d' v.
Proof.
  intros [VL VV E1 E2 WS WB PS PB LG VP] Hb Hba Hd.
  constructor.
  - exact VL.
  - exact VV.
  - intros p Hp. destruct (Nat.lt_ge_cases p b) as [Hlt|Hge].
    + apply E1. lia.
    + destruct (E2 p) as [Ep Et]; [lia|]. split; [exact Ep|]. right. split; [exact Et|].
      apply (edited_above (wlog v) b p); [apply (wbd_lt b); exact WB | exact Hge].
  - intros p Hp. apply E2. lia.
  - exact WS.
  - eapply Forall_impl; [|exact WB]. cbv beta. intros q Hq. lia.
  - exact PS.
  - eapply Forall_impl; [|exact PB]. cbv beta. intros q Hq. lia.
  - exact LG.
  - lia.
Qed.

Lemma frontier_facts c : Inv3x len c ->
  fr (C3 c) <= fr (W3 c) /\ fr (W3 c) <= fr (P3 c) /\ fr (P3 c) + 1 <= fr (C3 c) + len /\
  fr (C3 c) <= lastabs3 (Mwi3 c) /\ fr (W3 c) <= pos3 (P3 c) /\
  off3 (P3 c) <= len /\ off3 (W3 c) <= len /\ off3 (C3 c) <= len /\
  (pc3 (W3 c) = 2 -> fr (W3 c) < fr (P3 c)) /\
  (pc3 (C3 c) = 2 -> fr (C3 c) < fr (W3 c)).
Proof.
  intros I. pose proof (behind3x len c I) as B. pose proof (cap3x len c I) as K.
  pose proof (x_lwi len c I) as Hlwi. pose proof (x_lci len c I) as Hlci.
  pose proof (off_le_ca_x _ (x_pcP len c I)) as HoP.
  pose proof (off_le_ca_r len _ _ (x_pcW len c I)) as HoW. pose proof (off_le_ca_r len _ _ (x_pcC len c I)) as HoC.
  unfold fr. splits; try lia; intros E.
  - destruct (x_pcW len c I) as [[[X _]|[(_&X&Y)|(X&_)]]|(X&_)]; [congruence | lia | congruence | congruence].
  - destruct (x_pcC len c I) as [[[X _]|[(_&X&Y)|(X&_)]]|(X&_)]; [congruence | lia | congruence | congruence].
Qed.

Definition is_wreset (s : tid * cmd) : bool := match s with (TW, Reset _) => true | _ => false end.
Definition is_creset (s : tid * cmd) : bool := match s with (TC, Reset _) => true | _ => false end.

(* What a step that touches no slot may do to a thread [t] (becoming [t']): the frontier does not move
   backwards - and does not move at all unless the step is the store of the thread's reset (pc 5); the thread
   gets to pc 5 only by its own Reset command. *)
Definition moves (reset : bool) (t t' : thr3x) : Prop :=
  fr t <= fr t' /\ (pc3 t <> 5 -> fr t' = fr t) /\ (pc3 t <> 5 -> reset = false -> pc3 t' <> 5).

Lemma moves_refl r t : moves r t t.
Proof. unfold moves. auto. Qed.
Lemma moves_grant r t n : off3 t = 0 -> moves r t (t_grant t n).
Proof. intros E. unfold moves, fr; cbn. rewrite E. splits; auto; discriminate. Qed.
Lemma moves_load r t a v n : off3 t = 0 -> moves r t (t_load t a v n).
Proof. intros E. unfold moves, fr; cbn. rewrite E. splits; auto. intros _ _. destruct (n <=? a); discriminate. Qed.
(* the end of an operation: at [p'] = the frontier, or beyond it when a reset is stored *)
Lemma moves_end r t ix' p' ca' v d : fr t <= p' -> (pc3 t <> 5 -> p' = fr t) -> moves r t (t_end t ix' p' ca' v d).
Proof. intros H1 H2. unfold moves, fr in *; cbn. rewrite Nat.add_0_r. splits; auto; discriminate. Qed.
Lemma moves_reset t v m : moves true t (t_reset t v m).
Proof. unfold moves, fr; cbn. splits; auto; discriminate. Qed.
Lemma moves_detach r t : moves r t (t_detach t).
Proof. unfold moves, fr; cbn. auto. Qed.

Definition eff_quiet (c : cfg3x) (s : tid * cmd) : Prop :=
  let c' := step3_x len c s in
  metas3 c' = metas3 c /\ fr (P3 c') = fr (P3 c) /\
  moves (is_wreset s) (W3 c) (W3 c') /\ moves (is_creset s) (C3 c) (C3 c') /\
  (forall v, vstep c s v = v).

Definition eff_write (c : cfg3x) (s : tid * cmd) : Prop :=
  let c' := step3_x len c s in
  let q := fr (P3 c) in
  (exists x y z, metas3 c' = upd (q mod len) (mkMeta3 TP q x y z) (metas3 c)) /\
  fr (P3 c') = q + 1 /\ W3 c' = W3 c /\ C3 c' = C3 c /\
  (forall v, vstep c s v = mkVst (upd (q mod len) (pv q) (vals v)) (clog v) (plog v) (wlog v)).

Definition eff_edit (c : cfg3x) (s : tid * cmd) : Prop :=
  let c' := step3_x len c s in
  let q := fr (W3 c) in
  (exists x y z, metas3 c' = upd (q mod len) (mkMeta3 TW q x y z) (metas3 c)) /\
  P3 c' = P3 c /\ fr (W3 c') = q + 1 /\ pc3 (W3 c') <> 5 /\ C3 c' = C3 c /\
  (forall v, vstep c s v = mkVst (upd (q mod len) (f (nth (q mod len) (vals v) 0)) (vals v))
                                 (clog v) (plog v) (wlog v ++ [q])).

Definition eff_read (c : cfg3x) (s : tid * cmd) : Prop :=
  let c' := step3_x len c s in
  let q := fr (C3 c) in
  let m := nth (q mod len) (metas3 c) dmeta3 in
  (exists x y, metas3 c' = upd (q mod len) (mkMeta3 (wt m) (wpos3 m) (wclk3 m) x y) (metas3 c)) /\
  P3 c' = P3 c /\ W3 c' = W3 c /\ fr (C3 c') = q + 1 /\ pc3 (C3 c') <> 5 /\
  (forall v, vstep c s v = mkVst (vals v) (clog v ++ [nth (q mod len) (vals v) 0]) (plog v ++ [q]) (wlog v)).

(* [eff_quiet] with the (large) configuration after the step named once *)
Lemma eff_quiet_intro c s c' : step3_x len c s = c' ->
  metas3 c' = metas3 c -> fr (P3 c') = fr (P3 c) ->
  moves (is_wreset s) (W3 c) (W3 c') -> moves (is_creset s) (C3 c) (C3 c') ->
  (forall v, vstep c s v = v) -> eff_quiet c s.
Proof. intros <-. unfold eff_quiet. cbv zeta. auto. Qed.

Lemma eff_quiet_refl c s : step3_x len c s = c -> (forall v, vstep c s v = v) -> eff_quiet c s.
Proof. intros E Hv. apply (eff_quiet_intro c s c E); auto using moves_refl. Qed.

(* [step_is tac]: the configuration a step leads to, once [tac] has exposed the branch it takes;
   [no_access H]: the value step does nothing, the stepping thread being at the pc [H] gives, not at pc 2. *)
Ltac step_is tac := unfold step3_x, step3_a; cbn [fst snd]; tac; reflexivity.
Ltac no_access H := intros v; unfold vstep; cbn [fst snd]; try rewrite H; reflexivity.

Lemma step_cases c s : Inv3x len c -> eff_quiet c s \/ eff_write c s \/ eff_edit c s \/ eff_read c s.
Proof.
  intros I.
  pose proof (x_pcP len c I) as HpcP. pose proof (x_pcW len c I) as HpcW. pose proof (x_pcC len c I) as HpcC.
  destruct (frontier_facts c I) as (_ & _ & _ & _ & _ & HoP & HoW & HoC & _ & _).
  destruct s as [[| |] k].
  - destruct k as [j n|j| | |]; try (left; apply eff_quiet_refl; reflexivity).
    destruct HpcP as [[H0 Hoff]|[(H2&Hoff&Hcnt)|(H3&Hoff&Hcnt)]].
    + left. destruct (Nat.max 1 n <=? ca3 (P3 c)) eqn:El;
        (eapply eff_quiet_intro;
         [ step_is ltac:(unfold stepP3_a, opP3_a; rewrite H0; cbv zeta; rewrite El) | reflexivity
         | unfold fr; cbn; lia | apply moves_refl | apply moves_refl | no_access H0 ]).
    + right; left.
      assert (Hk0 : slot (P3 c) = fr (P3 c) mod len)
        by (unfold slot; rewrite (x_ixP len c I); apply wadd_mod; assumption).
      unfold eff_write. cbv zeta. remember (step3_x len c (TP, Op j n)) as c' eqn:E.
      unfold step3_x, step3_a in E; cbn [fst snd] in E; unfold stepP3_a, opP3_a in E.
      rewrite H2 in E. cbv zeta in E. fold (slot (P3 c)) in E. fold (fr (P3 c)) in E. rewrite Hk0 in E.
      subst c'. cbn [metas3 P3 W3 C3].
      splits; [eexists _, _, _; reflexivity | unfold fr; cbn; lia | reflexivity | reflexivity |].
      intros v; unfold vstep; cbn [fst snd]; rewrite H2, Hk0; reflexivity.
    + left. eapply eff_quiet_intro;
        [ step_is ltac:(unfold stepP3_a, opP3_a; rewrite H3) | reflexivity
        | unfold fr; cbn; lia | apply moves_refl | apply moves_refl | no_access H3 ].
  - destruct k as [j n|j| | |].
    (* away from pc 0 the commands other than [Op] do nothing *)
    2-5: left; destruct (pc3 (W3 c)) as [|p0] eqn:E;
      [| apply eff_quiet_refl; [step_is ltac:(unfold stepW3_a; rewrite E) | no_access E]].
    (* Attach, Sync: the local position is published, the frontier stays *)
    4-5: (destruct HpcW as [[[_ Hoff]|[(X&_)|(X&_)]]|(X&_)]; try congruence;
          eapply eff_quiet_intro;
            [ step_is ltac:(unfold stepW3_a; rewrite E; unfold publishW) | reflexivity | reflexivity
            | apply moves_end; unfold fr; intros; lia | apply moves_refl | no_access E ]).
    + destruct HpcW as [[[H0 Hoff]|[(H2&Hoff&Hcnt)|(H3&Hoff&Hcnt)]]|(H5&Hoff&Hge&Hle&Hnix)].
      * left. destruct (Nat.max 1 n <=? ca3 (W3 c)) eqn:El;
          (eapply eff_quiet_intro;
           [ step_is ltac:(unfold stepW3_a, opW3_a; rewrite H0; cbv zeta; rewrite El) | reflexivity | reflexivity
           | first [apply moves_grant | apply moves_load]; exact Hoff | apply moves_refl | no_access H0 ]).
      * right; right; left.
        assert (Hk0 : slot (W3 c) = fr (W3 c) mod len)
          by (unfold slot; rewrite (x_ixW len c I); apply wadd_mod; assumption).
        unfold eff_edit. cbv zeta. remember (step3_x len c (TW, Op j n)) as c' eqn:E.
        unfold step3_x, step3_a in E; cbn [fst snd] in E; unfold stepW3_a, opW3_a in E.
        rewrite H2 in E. cbv zeta in E. fold (slot (W3 c)) in E. fold (fr (W3 c)) in E. rewrite Hk0 in E.
        subst c'. cbn [metas3 P3 W3 C3].
        splits; [eexists _, _, _; reflexivity | reflexivity | unfold fr; cbn; lia
                | cbn; destruct (_ <=? _); discriminate | reflexivity |].
        intros v; unfold vstep; cbn [fst snd]; rewrite H2, Hk0; reflexivity.
      * left. destruct (det3 (W3 c)) eqn:Ed;
          (eapply eff_quiet_intro;
           [ step_is ltac:(unfold stepW3_a, opW3_a; rewrite H3; unfold finishW, localW, publishW; rewrite Ed)
           | reflexivity | reflexivity | apply moves_end; unfold fr; intros; lia | apply moves_refl | no_access H3 ]).
      * left. destruct (det3 (W3 c)) eqn:Ed;
          (eapply eff_quiet_intro;
           [ step_is ltac:(unfold stepW3_a, opW3_a; rewrite H5; unfold finishW, localW, publishW; rewrite Ed)
           | reflexivity | reflexivity | apply moves_end; [unfold fr; lia | congruence] | apply moves_refl
           | no_access H5 ]).
    + eapply eff_quiet_intro;
        [ step_is ltac:(unfold stepW3_a; rewrite E; unfold resetW_a) | reflexivity | reflexivity
        | apply moves_reset | apply moves_refl | no_access E ].
    + eapply eff_quiet_intro;
        [ step_is ltac:(unfold stepW3_a; rewrite E; unfold detachW) | reflexivity | reflexivity
        | apply moves_detach | apply moves_refl | no_access E ].
  - destruct k as [j n|j| | |].
    2-5: left; destruct (pc3 (C3 c)) as [|p0] eqn:E;
      [| apply eff_quiet_refl; [step_is ltac:(unfold stepC3_a; rewrite E) | no_access E]].
    4-5: (destruct HpcC as [[[_ Hoff]|[(X&_)|(X&_)]]|(X&_)]; try congruence;
          eapply eff_quiet_intro;
            [ step_is ltac:(unfold stepC3_a; rewrite E; unfold publishC) | reflexivity | reflexivity
            | apply moves_refl | apply moves_end; unfold fr; intros; lia | no_access E ]).
    + destruct HpcC as [[[H0 Hoff]|[(H2&Hoff&Hcnt)|(H3&Hoff&Hcnt)]]|(H5&Hoff&Hge&Hle&Hnix)].
      * left. destruct (Nat.max 1 n <=? ca3 (C3 c)) eqn:El;
          (eapply eff_quiet_intro;
           [ step_is ltac:(unfold stepC3_a, opC3_a; rewrite H0; cbv zeta; rewrite El) | reflexivity | reflexivity
           | apply moves_refl | first [apply moves_grant | apply moves_load]; exact Hoff | no_access H0 ]).
      * right; right; right.
        assert (Hk0 : slot (C3 c) = fr (C3 c) mod len)
          by (unfold slot; rewrite (x_ixC len c I); apply wadd_mod; assumption).
        unfold eff_read. cbv zeta. remember (step3_x len c (TC, Op j n)) as c' eqn:E.
        unfold step3_x, step3_a in E; cbn [fst snd] in E; unfold stepC3_a, opC3_a in E.
        rewrite H2 in E. cbv zeta in E. fold (slot (C3 c)) in E. fold (fr (C3 c)) in E. rewrite Hk0 in E.
        subst c'. cbn [metas3 P3 W3 C3].
        splits; [eexists _, _; reflexivity | reflexivity | reflexivity | unfold fr; cbn; lia
                | cbn; destruct (_ <=? _); discriminate |].
        intros v; unfold vstep; cbn [fst snd]; rewrite H2, Hk0; reflexivity.
      * left. destruct (det3 (C3 c)) eqn:Ed;
          (eapply eff_quiet_intro;
           [ step_is ltac:(unfold stepC3_a, opC3_a; rewrite H3; unfold finishC, localC, publishC; rewrite Ed)
           | reflexivity | reflexivity | apply moves_refl | apply moves_end; unfold fr; intros; lia | no_access H3 ]).
      * left. destruct (det3 (C3 c)) eqn:Ed;
          (eapply eff_quiet_intro;
           [ step_is ltac:(unfold stepC3_a, opC3_a; rewrite H5; unfold finishC, localC, publishC; rewrite Ed)
           | reflexivity | reflexivity | apply moves_refl | apply moves_end; [unfold fr; lia | congruence]
           | no_access H5 ]).
    + eapply eff_quiet_intro;
        [ step_is ltac:(unfold stepC3_a; rewrite E; unfold resetC_a) | reflexivity | reflexivity
        | apply moves_refl | apply moves_reset | no_access E ].
    + eapply eff_quiet_intro;
        [ step_is ltac:(unfold stepC3_a; rewrite E; unfold detachC) | reflexivity | reflexivity
        | apply moves_refl | apply moves_detach | no_access E ].
Qed.

Lemma vstep_inv c s v : Inv3x len c -> VInv c v -> VInv (step3_x len c s) (vstep c s v).
Proof.
  intros I V.
  pose proof (step3x_inv len Hlen c s I) as I'.
  destruct (frontier_facts c I) as (F1 & F2 & F3 & _).
  destruct (frontier_facts _ I') as (G1 & G2 & _).
  pose proof (x_metas len c I) as LM.
  unfold VInv in *.
  destruct (step_cases c s I) as [Q|[E|[E|E]]].
  - (* no slot touched; possibly the store of a reset *)
    destruct Q as (Qm & Qp & (Qw & _) & (Qc & _) & Qv).
    rewrite Qp in G2. rewrite Qv, Qm, Qp.
    apply (VI_jump _ _ (fr (W3 c)) (fr (C3 c))); [exact V | exact Qw | exact G2 | exact Qc].
  - destruct E as ((x & y & z & Em) & EP & EW & EC & Ev).
    rewrite Ev, Em, EP, EW, EC.
    apply VI_P; [exact V | exact LM | exact F1 | exact F2 | exact F3 | reflexivity].
  - destruct E as ((x & y & z & Em) & EP & EW & _ & EC & Ev).
    rewrite EP, EW in G2.
    rewrite Ev, Em, EP, EW, EC.
    apply VI_W; [exact V | exact LM | exact F1 | lia | lia | reflexivity].
  - destruct E as ((x & y & Em) & EP & EW & EC & _ & Ev).
    rewrite EW, EC in G1.
    rewrite Ev, Em, EP, EW, EC.
    apply VI_C; [exact V | exact LM | lia | reflexivity].
Qed.

(* Without worker resets: the worker is never at pc 5, its log is gap-free up to its frontier.
   Without consumer resets: likewise for the consumer. *)
Definition NRW (c : cfg3x) (v : vst) : Prop := pc3 (W3 c) <> 5 /\ wlog v = seq len (fr (W3 c) - len).
Definition NRC (c : cfg3x) (v : vst) : Prop := pc3 (C3 c) <> 5 /\ plog v = seq len (fr (C3 c) - len).

Lemma vstep_nrw c s v :
  Inv3x len c -> VInv c v -> is_wreset s = false -> NRW c v -> NRW (step3_x len c s) (vstep c s v).
Proof.
  intros I V Hs [N1 N2]. unfold NRW.
  destruct (frontier_facts c I) as (F1 & _).
  pose proof (v_pos _ _ _ _ _ V) as Hlo.
  destruct (step_cases c s I) as [Q|[E|[E|E]]].
  - destruct Q as (_ & _ & (_ & Qw & Qpw) & _ & Qv). rewrite Qv, Qw by exact N1. auto.
  - destruct E as (_ & _ & EW & _ & Ev). rewrite Ev, EW. auto.
  - destruct E as (_ & _ & EW & EpW & _ & Ev). rewrite Ev, EW. cbn [wlog]. rewrite N2.
    split; [exact EpW | apply seq_snoc_front; lia].
  - destruct E as (_ & _ & EW & _ & _ & Ev). rewrite Ev, EW. auto.
Qed.

Lemma vstep_nrc c s v :
  Inv3x len c -> VInv c v -> is_creset s = false -> NRC c v -> NRC (step3_x len c s) (vstep c s v).
Proof.
  intros I V Hs [N1 N2]. unfold NRC.
  pose proof (v_pos _ _ _ _ _ V) as Hlo.
  destruct (step_cases c s I) as [Q|[E|[E|E]]].
  - destruct Q as (_ & _ & _ & (_ & Qc & Qpc) & Qv). rewrite Qv, Qc by exact N1. auto.
  - destruct E as (_ & _ & _ & EC & Ev). rewrite Ev, EC. auto.
  - destruct E as (_ & _ & _ & _ & EC & Ev). rewrite Ev, EC. auto.
  - destruct E as (_ & _ & _ & EC & EpC & Ev). rewrite Ev, EC. cbn [plog]. rewrite N2.
    split; [exact EpC | apply seq_snoc_front; exact Hlo].
Qed.

(* The logs only grow; what the worker's log gains lies at or above the worker's frontier before the step; the
   frontiers of worker and consumer never move backwards. *)
Definition ext (b : nat) (v v' : vst) : Prop :=
  (exists l, wlog v' = wlog v ++ l /\ Forall (fun p => b <= p) l) /\
  (exists l, plog v' = plog v ++ l) /\ (exists l, clog v' = clog v ++ l).

Lemma ext_same b v v' : wlog v' = wlog v -> plog v' = plog v -> clog v' = clog v -> ext b v v'.
Proof. intros A B C. unfold ext. rewrite A, B, C. splits; exists []; rewrite app_nil_r; auto. Qed.

Lemma vstep_ext c s v : Inv3x len c ->
  fr (W3 c) <= fr (W3 (step3_x len c s)) /\ ext (fr (W3 c)) v (vstep c s v).
Proof.
  intros I.
  destruct (step_cases c s I) as [Q|[E|[E|E]]].
  - destruct Q as (_ & _ & (Qw & _) & _ & Qv). rewrite Qv. split; [exact Qw | apply ext_same; reflexivity].
  - destruct E as (_ & _ & EW & _ & Ev). rewrite Ev, EW. split; [apply Nat.le_refl | apply ext_same; reflexivity].
  - destruct E as (_ & _ & EW & _ & _ & Ev). rewrite Ev, EW. split; [apply Nat.le_add_r|]. unfold ext; cbn [wlog plog clog].
    splits; [exists [fr (W3 c)] | exists [] | exists []]; rewrite ?app_nil_r; auto.
  - destruct E as (_ & _ & EW & _ & _ & Ev). rewrite Ev, EW. split; [apply Nat.le_refl|]. unfold ext; cbn [wlog plog clog].
    splits; [exists [] | exists [fr (C3 c)] | exists [nth (fr (C3 c) mod len) (vals v) 0]];
      rewrite ?app_nil_r; auto.
Qed.

Lemma ext_trans b b' v v' v'' : b <= b' -> ext b v v' -> ext b' v' v'' -> ext b v v''.
Proof.
  intros Hb ((l1 & A1 & A2) & (l2 & A3) & (l3 & A4)) ((m1 & B1 & B2) & (m2 & B3) & (m3 & B4)).
  unfold ext. splits.
  - exists (l1 ++ m1). rewrite B1, A1, app_assoc. split; [reflexivity|].
    apply Forall_app. split; [exact A2|]. eapply Forall_impl; [|exact B2]. cbv beta. intros q Hq. lia.
  - exists (l2 ++ m2). rewrite B3, A3, app_assoc. reflexivity.
  - exists (l3 ++ m3). rewrite B4, A4, app_assoc. reflexivity.
Qed.

Lemma vinit_inv : VInv (init3_x len) vinit0.
Proof.
  unfold VInv, vinit0, init3_x, fr. cbn [metas3 P3 W3 C3 pos3 off3].
  constructor; cbn [vals clog plog wlog].
  - rewrite map_length, seq_length. reflexivity.
  - intros k Hk. rewrite (nth_init_meta3 len k Hk). unfold val_of. cbn [wt wpos3].
    rewrite (nth_indep _ 0 (init 0)) by (rewrite map_length, seq_length; exact Hk).
    rewrite map_nth, seq_nth by exact Hk. reflexivity.
  - intros p Hp. lia.
  - intros p Hp. lia.
  - constructor.
  - constructor.
  - constructor.
  - constructor.
  - reflexivity.
  - lia.
Qed.

Lemma vinit_nrw : NRW (init3_x len) vinit0.
Proof.
  unfold NRW, vinit0, init3_x, fr; cbn [wlog W3 pos3 off3 pc3]. split; [discriminate|].
  replace (len + 0 - len) with 0 by lia. reflexivity.
Qed.

Lemma vinit_nrc : NRC (init3_x len) vinit0.
Proof.
  unfold NRC, vinit0, init3_x, fr; cbn [plog C3 pos3 off3 pc3]. split; [discriminate|].
  replace (len + 0 - len) with 0 by lia. reflexivity.
Qed.

Lemma vexec_inv script : forall c v, Inv3x len c -> VInv c v ->
  Inv3x len (fst (vexec c v script)) /\ VInv (fst (vexec c v script)) (snd (vexec c v script)).
Proof.
  induction script as [|s r IH]; intros c v I V; cbn [vexec]; [cbn [fst snd]; split; assumption|].
  apply IH; [apply step3x_inv; assumption | apply vstep_inv; assumption].
Qed.

Lemma vexec_keeps (ok : tid * cmd -> bool) (N : cfg3x -> vst -> Prop) :
  (forall c s v, Inv3x len c -> VInv c v -> ok s = false -> N c v -> N (step3_x len c s) (vstep c s v)) ->
  forall script c v, Inv3x len c -> VInv c v -> forallb (fun s => negb (ok s)) script = true -> N c v ->
  N (fst (vexec c v script)) (snd (vexec c v script)).
Proof.
  intros Hstep. induction script as [|s r IH]; intros c v I V Hs N0; cbn [vexec]; [exact N0|].
  cbn [forallb] in Hs. apply andb_true_iff in Hs. destruct Hs as [Hs Hr]. apply negb_true_iff in Hs.
  apply IH; [apply step3x_inv; assumption | apply vstep_inv; assumption | exact Hr | apply Hstep; assumption].
Qed.

Lemma vexec_nrw script : forall c v, Inv3x len c -> VInv c v ->
  forallb (fun s => negb (is_wreset s)) script = true -> NRW c v ->
  NRW (fst (vexec c v script)) (snd (vexec c v script)).
Proof. exact (vexec_keeps is_wreset NRW vstep_nrw script). Qed.

Lemma vexec_nrc script : forall c v, Inv3x len c -> VInv c v ->
  forallb (fun s => negb (is_creset s)) script = true -> NRC c v ->
  NRC (fst (vexec c v script)) (snd (vexec c v script)).
Proof. exact (vexec_keeps is_creset NRC vstep_nrc script). Qed.

Lemma vexec_ext script : forall c v, Inv3x len c -> ext (fr (W3 c)) v (snd (vexec c v script)).
Proof.
  induction script as [|s r IH]; intros c v I; cbn [vexec].
  - apply ext_same; reflexivity.
  - destruct (vstep_ext c s v I) as [Hb E1].
    apply (ext_trans _ _ _ _ _ Hb E1). apply IH. apply step3x_inv; assumption.
Qed.

End Values3x.

Definition vrun (len : nat) (pv f init : nat -> nat) (script : list (tid * cmd)) : vst :=
  snd (vexec len pv f (init3_x len) (vinit0 len init) script).

Lemma vrun_inv len pv f init script : 0 < len ->
  Inv3x len (exec3_x len (init3_x len) script) /\
  VInv len pv f init (exec3_x len (init3_x len) script) (vrun len pv f init script).
Proof.
  intros Hl.
  pose proof (vexec_inv len Hl pv f init script _ _ (init3x_inv len Hl) (vinit_inv len Hl pv f init)) as [I V].
  rewrite vexec_fst in I, V. split; assumption.
Qed.

(** (1) Every value the consumer reads is the value pushed at the position it believes it is reading, with the
    worker's transformation applied exactly once if the worker's log - AT THE END of the execution - has that
    position, and not at all otherwise. *)
Theorem consumed_values_3x : forall len pv f init script, 0 < len ->
  let v := vrun len pv f init script in
  clog v = map (fun p => if existsb (Nat.eqb p) (wlog v) then f (pv p) else pv p) (plog v).
Proof.
  intros len pv f init script Hl v. destruct (vrun_inv len pv f init script Hl) as [_ V].
  exact (v_log len pv f init _ _ _ _ _ V).
Qed.

(** (2) The positions read are strictly increasing, start at [len] and lie below the position the WORKER HAS
    PUBLISHED; the positions edited are strictly increasing (no position is edited twice), start at [len] and
    lie below the position the producer has published. *)
Theorem consumed_positions_increasing_3x : forall len pv f init script, 0 < len ->
  let c := exec3_x len (init3_x len) script in
  let v := vrun len pv f init script in
  StronglySorted lt (plog v) /\ Forall (fun p => len <= p < publishedW3 c) (plog v) /\
  StronglySorted lt (wlog v) /\ Forall (fun p => len <= p < publishedP3 c) (wlog v).
Proof.
  intros len pv f init script Hl c v. destruct (vrun_inv len pv f init script Hl) as [I V].
  fold c in I, V. fold v in V.
  destruct (frontier_facts len Hl c I) as (_ & _ & _ & FC & FW & _).
  pose proof (x_lpi len c I) as Hlpi.
  unfold publishedW3, publishedP3. rewrite <- !lastabs3_last, Hlpi.
  split; [exact (v_psrt len pv f init _ _ _ _ _ V)|]. split.
  - eapply Forall_impl; [|exact (v_pbd len pv f init _ _ _ _ _ V)]. cbv beta. intros a Ha. lia.
  - split; [exact (v_wsrt len pv f init _ _ _ _ _ V)|].
    eapply Forall_impl; [|exact (v_wbd len pv f init _ _ _ _ _ V)]. cbv beta. intros a Ha. lia.
Qed.

Corollary consumed_positions_lt_3x : forall len pv f init script i j, 0 < len ->
  let v := vrun len pv f init script in
  (i < j < length (plog v) -> nth i (plog v) 0 < nth j (plog v) 0) /\
  (i < j < length (wlog v) -> nth i (wlog v) 0 < nth j (wlog v) 0).
Proof.
  intros len pv f init script i j Hl v.
  destruct (consumed_positions_increasing_3x len pv f init script Hl) as (S1 & _ & S2 & _).
  split; intros Hij; apply ssorted_nth_lt; assumption.
Qed.

(** (3a) Without WORKER resets the worker's log is exactly a prefix of the positions, and everything the consumer
    reads has been edited (the consumer may reset). *)
Theorem no_worker_reset_3x : forall len pv f init script, 0 < len ->
  (forall j, ~ In (TW, Reset j) script) ->
  let v := vrun len pv f init script in
  wlog v = seq len (length (wlog v)) /\ clog v = map (fun p => f (pv p)) (plog v).
Proof.
  intros len pv f init script Hl Hnr v.
  assert (Hs : forallb (fun s => negb (is_wreset s)) script = true).
  { apply forallb_forall. intros [[| |] k] Hin; destruct k as [j n|j| | |]; try reflexivity.
    exfalso. exact (Hnr j Hin). }
  pose proof (vexec_nrw len Hl pv f init script _ _ (init3x_inv len Hl) (vinit_inv len Hl pv f init) Hs
                        (vinit_nrw len Hl init)) as [_ N].
  rewrite vexec_fst in N. fold (vrun len pv f init script) in N. fold v in N.
  destruct (vrun_inv len pv f init script Hl) as [I V]. fold v in V.
  destruct (frontier_facts len Hl _ I) as (F1 & _).
  split; [rewrite N at 1; rewrite N, seq_length; reflexivity|].
  rewrite (v_log len pv f init _ _ _ _ _ V). apply map_ext_in. intros p Hp.
  pose proof (v_pbd len pv f init _ _ _ _ _ V) as PB. rewrite Forall_forall in PB. specialize (PB p Hp).
  cbv beta in PB. unfold expect. rewrite N, edited_seq by lia. reflexivity.
Qed.

(** (3b) Without CONSUMER resets the consumed positions are exactly a prefix: nothing is lost (the worker may
    reset: then some of the items arrive unedited, see (1)). *)
Theorem no_consumer_reset_3x : forall len pv f init script, 0 < len ->
  (forall j, ~ In (TC, Reset j) script) ->
  let v := vrun len pv f init script in
  plog v = seq len (length (plog v)).
Proof.
  intros len pv f init script Hl Hnr v.
  assert (Hs : forallb (fun s => negb (is_creset s)) script = true).
  { apply forallb_forall. intros [[| |] k] Hin; destruct k as [j n|j| | |]; try reflexivity.
    exfalso. exact (Hnr j Hin). }
  pose proof (vexec_nrc len Hl pv f init script _ _ (init3x_inv len Hl) (vinit_inv len Hl pv f init) Hs
                        (vinit_nrc len Hl init)) as [_ N].
  rewrite vexec_fst in N. fold (vrun len pv f init script) in N. fold v in N.
  rewrite N at 1. rewrite N, seq_length. reflexivity.
Qed.

(** (3) Without any Reset command (Detach / Sync / Attach allowed): exactly the prefix, everything edited. *)
Theorem no_reset_prefix_3x : forall len pv f init script, 0 < len ->
  (forall t j, ~ In (t, Reset j) script) ->
  let v := vrun len pv f init script in
  plog v = seq len (length (plog v)) /\ wlog v = seq len (length (wlog v)) /\
  clog v = map (fun p => f (pv p)) (plog v).
Proof.
  intros len pv f init script Hl Hnr v.
  destruct (no_worker_reset_3x len pv f init script Hl (fun j => Hnr TW j)) as [A B].
  pose proof (no_consumer_reset_3x len pv f init script Hl (fun j => Hnr TC j)) as C.
  split; [exact C | split; [exact A | exact B]].
Qed.

(** (4) The logs only grow.  Whatever the worker edits after a moment lies at or above its frontier
    [pos W + off W] of that moment; that frontier is at or above the position the worker had PUBLISHED, and
    everything the consumer had read lies strictly below the published position.  So whether a position below the
    frontier - in particular any position the consumer has read or may read - counts as edited never changes:
    the consumer never sees a value that is edited later. *)
Theorem edit_status_frozen_3x : forall len pv f init s1 s2, 0 < len ->
  let c1 := exec3_x len (init3_x len) s1 in
  let v1 := vrun len pv f init s1 in
  let v2 := vrun len pv f init (s1 ++ s2) in
  (exists l, wlog v2 = wlog v1 ++ l /\ Forall (fun p => pos3 (W3 c1) + off3 (W3 c1) <= p) l) /\
  (exists l, plog v2 = plog v1 ++ l) /\ (exists l, clog v2 = clog v1 ++ l) /\
  (forall p, p < pos3 (W3 c1) + off3 (W3 c1) ->
             existsb (Nat.eqb p) (wlog v2) = existsb (Nat.eqb p) (wlog v1)) /\
  publishedW3 c1 <= pos3 (W3 c1) + off3 (W3 c1) /\
  Forall (fun p => p < publishedW3 c1) (plog v1).
Proof.
  intros len pv f init s1 s2 Hl c1 v1 v2.
  destruct (vrun_inv len pv f init s1 Hl) as [I V]. fold c1 in I, V. fold v1 in V.
  assert (E : ext (fr (W3 c1)) v1 v2).
  { unfold v2, vrun. rewrite vexec_app. rewrite vexec_fst. fold (vrun len pv f init s1). fold v1. fold c1.
    apply vexec_ext; [exact Hl | exact I]. }
  destruct E as ((l1 & A1 & A2) & E2 & E3).
  destruct (consumed_positions_increasing_3x len pv f init s1 Hl) as (_ & PB & _). fold c1 v1 in PB.
  pose proof (x_lwi len c1 I) as Hlwi.
  splits.
  - exists l1. split; [exact A1 | exact A2].
  - exact E2.
  - exact E3.
  - intros p Hp. fold (edited (wlog v2) p). fold (edited (wlog v1) p).
    rewrite A1, edited_app, (edited_below l1 (fr (W3 c1)) p A2 Hp). apply orb_false_r.
  - unfold publishedW3. rewrite <- lastabs3_last. lia.
  - eapply Forall_impl; [|exact PB]. cbv beta. intros a Ha. lia.
Qed.

(* Examples, len = 4 (capacity 3): the value pushed at position p is 10 * p, the worker's transformation is
   f = S, the slots initially hold 0.  Shown: (clog, plog, wlog).  The scripts are RA3x.v's.          *)
Definition pv_demo (p : nat) : nat := 10 * p.
Definition logs3 (len : nat) (script : list (tid * cmd)) : list nat * list nat * list nat :=
  let v := vrun len pv_demo S (fun _ => 0) script in (clog v, plog v, wlog v).

(* detached WORKER ([demo_wdet]): W's log has 4,5,6 while nothing is published and C gets nothing; after the Sync C
   reads the three EDITED values; second lap: one item edited while detached, Attach, two more attached. *)
Example demo_wdet_before_sync : logs3 4 (firstn 14 demo_wdet) = ([], [], [4; 5; 6]).
Proof. vm_compute. reflexivity. Qed.
Example demo_wdet_after_sync : logs3 4 (firstn 20 demo_wdet) = ([41; 51; 61], [4; 5; 6], [4; 5; 6]).
Proof. vm_compute. reflexivity. Qed.
Example demo_wdet_logs :
  logs3 4 demo_wdet = ([41; 51; 61; 71; 81; 91], [4; 5; 6; 7; 8; 9], [4; 5; 6; 7; 8; 9]).
Proof. vm_compute. reflexivity. Qed.

(* WORKER reset_index ([demo_wreset])
   W edits position 4, then resets to position 7 while P is pushing: positions 5 and 6 are SKIPPED.  C reads them
   UNEDITED (50, 60 - not 51, 61), then the edited 7, 8, 9.  The worker's log never gets 5 or 6. *)
Example demo_wreset_skipped : logs3 4 (firstn 20 demo_wreset) = ([41; 50; 60], [4; 5; 6], [4]).
Proof. vm_compute. reflexivity. Qed.
Example demo_wreset_logs :
  logs3 4 demo_wreset = ([41; 50; 60; 71; 81; 91], [4; 5; 6; 7; 8; 9], [4; 7; 8; 9]).
Proof. vm_compute. reflexivity. Qed.

(* ... a reset while DETACHED, skipping everything; after the Sync C reads three unedited items. *)
Example demo_wdet_reset_logs :
  logs3 4 (firstn 6 demo_wdet ++ [kW (Reset 99); sW 0; sC 1; kW Sync; sC 3; sC 3; sC 3; sC 3; sC 3])
  = ([40; 50; 60], [4; 5; 6], []).
Proof. vm_compute. reflexivity. Qed.

(* CONSUMER reset_index ([demo_creset])
   W edits positions 4,5 and - interleaved with C's reset - 6.  C reads 4, resets to 6 (position 5 is skipped,
   never read, although edited), reads 6. *)
Example demo_creset_logs : logs3 4 demo_creset = ([41; 61], [4; 6], [4; 5; 6]).
Proof. vm_compute. reflexivity. Qed.

(* detached CONSUMER ([demo_cdet]): no reset anywhere - exactly the prefix, everything edited *)
Example demo_cdet_logs : logs3 4 demo_cdet = ([41; 51; 61; 71; 81], [4; 5; 6; 7; 8], [4; 5; 6; 7; 8]).
Proof. vm_compute. reflexivity. Qed.

Print Assumptions consumed_values_3x.
Print Assumptions consumed_positions_increasing_3x.
Print Assumptions no_reset_prefix_3x.
Print Assumptions edit_status_frozen_3x.
