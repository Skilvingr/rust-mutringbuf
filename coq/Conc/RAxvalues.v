(** * What the consumer reads on the extended release/acquire machine (RAx.v): a VALUE layer.

    Values are threaded alongside the machine of RAx.v (multi-slot windows, stale reads, all interleavings,
    [Reset], [Detach] / [Sync] / [Attach]):
    - the producer's per-slot write step (pc 2) for absolute position [p = pos P + off P] stores [pv p] into
      slot [wadd len (ix P) (off P)] of the value array [vals];
    - the consumer's per-slot read step (pc 2) appends the value it finds in slot [wadd len (ix C) (off C)] to
      [clog] and - separately - the absolute position [pos C + off C] it believes it is reading to [plog].
    The slots initially hold arbitrary values [init k].

    For all [len > 0] and all scripts:
    - [consumed_values_x]               clog = map pv plog: every value read is exactly the value pushed at that
                                        position - never an initial, stale, overwritten or not-yet-written slot,
                                        also across resets and while detached;
    - [consumed_positions_increasing_x] plog is strictly increasing, every element is >= len (both threads start at
                                        absolute position [len], see [init_x]) and below the position the producer
                                        has published: the consumed sequence is a subsequence of the pushed one, in
                                        order, nothing duplicated or reordered;
    - [no_reset_prefix_x]               if the script has no [Reset] command, plog = seq len (length plog): exactly
                                        a prefix, nothing lost.  (Items are skipped only by [Reset].)

    The race-freedom invariant [InvX] of RAxproof.v is reused as is; the value invariant [VInv] below only adds
    "every slot of a pushed, not yet read position was last written at exactly that position" ([v_rng]). *)
From Coq Require Import List Arith Lia Bool Sorted.
Import ListNotations.
Require Import MRB.Conc.RA MRB.Conc.RAproof MRB.Conc.RAx MRB.Conc.RAxproof.


(* value array, the consumer's log of values, the consumer's log of (believed) absolute positions *)
Record vst := mkVst { vals : list nat; clog : list nat; plog : list nat }.

Section Values.
Variable len : nat.
Hypothesis Hlen : 0 < len.
Variables (pv init : nat -> nat).

(* The value step for script entry [s] in configuration [c] (the configuration BEFORE the machine step). *)
Definition vstep (c : cfg_x) (s : bool * cmd) (v : vst) : vst :=
  match snd s with
  | Op _ _ =>
    if fst s then
      if pc (P c) =? 2
      then mkVst (upd (wadd len (ix (P c)) (off (P c))) (pv (pos (P c) + off (P c))) (vals v)) (clog v) (plog v)
      else v
    else
      if pc (C c) =? 2
      then mkVst (vals v) (clog v ++ [nth (wadd len (ix (C c)) (off (C c))) (vals v) 0])
                 (plog v ++ [pos (C c) + off (C c)])
      else v
  | _ => v
  end.

Fixpoint vexec (c : cfg_x) (v : vst) (script : list (bool * cmd)) : cfg_x * vst :=
  match script with
  | [] => (c, v)
  | s :: r => vexec (step_x len c s) (vstep c s v) r
  end.

Definition vinit0 : vst := mkVst (map init (seq 0 len)) [] [].

Lemma vexec_fst script : forall c v, fst (vexec c v script) = exec_x len c script.
Proof.
  induction script as [|s r IH]; intros c v; [reflexivity|].
  cbn [vexec]. rewrite IH. reflexivity.
Qed.

(* frontiers: the next position the producer writes / the consumer reads (inside a window: pos + off) *)
Definition frontP (c : cfg_x) : nat := pos (P c) + off (P c).
Definition frontC (c : cfg_x) : nat := pos (C c) + off (C c).
(* the absolute position of the last write of slot k (from the race detector's metadata) *)
Definition W (c : cfg_x) (k : nat) : nat := wpos (mtx c k).

Record VInv (c : cfg_x) (v : vst) : Prop := mkVInv {
  v_len : length (vals v) = len;
  (* a slot the producer has written holds the value pushed at the position of its last write *)
  v_val : forall k, k < len -> len <= W c k -> nth k (vals v) 0 = pv (W c k);
  (* written, not yet read: the slot of that position was last written at exactly that position *)
  v_rng : forall p, frontC c <= p < frontP c -> W c (p mod len) = p;
  v_lo  : len <= frontC c;
  v_srt : StronglySorted lt (plog v);
  v_bd  : Forall (fun p => len <= p < frontC c) (plog v);
  v_log : clog v = map pv (plog v)
}.

(* Without resets: the consumer is never at pc 5, and the log of positions is gap-free up to the frontier. *)
Definition NR (c : cfg_x) (v : vst) : Prop := pc (C c) <> 5 /\ plog v = seq len (frontC c - len).

Definition is_creset (s : bool * cmd) : bool :=
  match s with (false, Reset _) => true | _ => false end.

(* A step that touches no slot: the metadata and the producer's frontier are unchanged, the consumer's frontier
   does not move backwards - and does not move at all unless the step is the store of a reset (pc 5). *)
Definition quiet (c c' : cfg_x) : Prop :=
  metas c' = metas c /\ frontP c' = frontP c /\ frontC c <= frontC c' /\
  (pc (C c) <> 5 -> frontC c' = frontC c).

Lemma quiet_refl c : quiet c c.
Proof. unfold quiet; repeat split; auto. Qed.

Definition eff_quiet (c : cfg_x) (s : bool * cmd) : Prop :=
  quiet c (step_x len c s) /\ (forall v, vstep c s v = v) /\
  (pc (C c) <> 5 -> is_creset s = false -> pc (C (step_x len c s)) <> 5).

Definition eff_write (c : cfg_x) (s : bool * cmd) : Prop :=
  let c' := step_x len c s in
  let q := frontP c in
  frontP c' = q + 1 /\ frontC c' = frontC c /\ pc (C c') = pc (C c) /\
  (forall k, k < len -> W c' k = if Nat.eqb (q mod len) k then q else W c k) /\
  (forall v, vstep c s v = mkVst (upd (q mod len) (pv q) (vals v)) (clog v) (plog v)).

Definition eff_read (c : cfg_x) (s : bool * cmd) : Prop :=
  let c' := step_x len c s in
  let q := frontC c in
  frontP c' = frontP c /\ frontC c' = q + 1 /\ pc (C c') <> 5 /\ q < pos (P c) /\
  (forall k, k < len -> W c' k = W c k) /\
  (forall v, vstep c s v = mkVst (vals v) (clog v ++ [nth (q mod len) (vals v) 0]) (plog v ++ [q])).

Lemma step_cases c s : InvX len c -> eff_quiet c s \/ eff_write c s \/ eff_read c s.
Proof.
  intros I.
  pose proof (i_pcP len c I) as HpcP. pose proof (i_pcC len c I) as HpcC.
  pose proof (i_ixP len c I) as HixP. pose proof (i_ixC len c I) as HixC.
  pose proof (i_metas len c I) as Hmetas.
  pose proof (caP_cap len c I) as HcapP. pose proof (caC_cap len c I) as HcapC.
  destruct s as [[|] k].
  - (* producer *)
    destruct k as [j n|j| | |];
      try (left; unfold eff_quiet, step_x, step_a; cbn [fst snd]; unfold stepP_a;
           splits; [apply quiet_refl | reflexivity | auto]).
    destruct HpcP as [[H0 Hoff]|[(H2&Hoff&Hcnt)|(H3&Hoff&Hcnt)]].
    + (* pc 0: check / load / grant *)
      left. unfold eff_quiet, step_x, step_a; cbn [fst snd]; unfold stepP_a, opP_a. rewrite H0. cbv zeta.
      splits.
      * destruct (Nat.max 1 n <=? ca (P c)); unfold quiet, frontP, frontC; simpl; splits; auto; lia.
      * intros v. unfold vstep; cbn [fst snd]. rewrite H0. reflexivity.
      * destruct (Nat.max 1 n <=? ca (P c)); simpl; auto.
    + (* pc 2: write one slot *)
      right; left.
      assert (Hk0 : wadd len (ix (P c)) (off (P c)) = (pos (P c) + off (P c)) mod len)
        by (rewrite HixP; apply wadd_mod; lia).
      unfold eff_write, step_x, step_a; cbn [fst snd]; unfold stepP_a, opP_a. rewrite H2. cbv zeta.
      rewrite Hk0. fold (frontP c).
      assert (Hk : frontP c mod len < len) by (apply Nat.mod_upper_bound; lia).
      splits.
      * unfold frontP; simpl. lia.
      * reflexivity.
      * reflexivity.
      * intros k Hk'. unfold W, mtx; simpl. rewrite nth_upd_if by lia.
        destruct (Nat.eqb (frontP c mod len) k); reflexivity.
      * intros v. unfold vstep; cbn [fst snd]. rewrite H2, Hk0. reflexivity.
    + (* pc 3: advance + release store *)
      left. unfold eff_quiet, step_x, step_a; cbn [fst snd]; unfold stepP_a, opP_a. rewrite H3. cbv zeta.
      splits.
      * unfold quiet, frontP, frontC; simpl; splits; auto; lia.
      * intros v. unfold vstep; cbn [fst snd]. rewrite H3. reflexivity.
      * simpl; auto.
  - (* consumer *)
    destruct k as [j n|j| | |].
    (* Reset / Detach / Attach / Sync do nothing unless the consumer is at pc 0 *)
    2-5: (left; unfold eff_quiet, step_x, step_a; cbn [fst snd]; unfold stepC_a;
          destruct (pc (C c)) as [|p0] eqn:E;
          [|splits; [apply quiet_refl | reflexivity | intros X _; rewrite E; exact X]]).
    (* Attach, Sync: the local position is published, nothing moves *)
    4-5: (destruct HpcC as [[[_ Hoff]|[(X&_)|(X&_)]]|(X&_)]; try congruence;
          unfold publishC; cbv zeta; splits;
          [unfold quiet, frontP, frontC; simpl; splits; auto; lia | reflexivity | intros _ _; simpl; discriminate]).
    + (* Op *)
      destruct HpcC as [[[H0 Hoff]|[(H2&Hoff&Hcnt)|(H3&Hoff&Hcnt)]]|(H5&Hoff&Hge&Hle&Hnix)].
      * (* pc 0 *)
        left. unfold eff_quiet, step_x, step_a; cbn [fst snd]; unfold stepC_a, opC_a. rewrite H0. cbv zeta.
        splits.
        -- destruct (Nat.max 1 n <=? ca (C c)); unfold quiet, frontP, frontC; simpl; splits; auto; lia.
        -- intros v. unfold vstep; cbn [fst snd]. rewrite H0. reflexivity.
        -- intros _ _. destruct (Nat.max 1 n <=? ca (C c)); simpl; [discriminate|].
           match goal with |- context[if ?b then 2 else 0] => destruct b end; discriminate.
      * (* pc 2: read one slot *)
        right; right.
        assert (Hk0 : wadd len (ix (C c)) (off (C c)) = (pos (C c) + off (C c)) mod len)
          by (rewrite HixC; apply wadd_mod; lia).
        pose proof (i_caC len c I) as HcaC. pose proof (seenCx_le_posP len c I) as Hseen.
        unfold eff_read, step_x, step_a; cbn [fst snd]; unfold stepC_a, opC_a. rewrite H2. cbv zeta.
        rewrite Hk0. fold (frontC c).
        assert (Hk : frontC c mod len < len) by (apply Nat.mod_upper_bound; lia).
        splits.
        -- reflexivity.
        -- unfold frontC; simpl. lia.
        -- simpl. destruct (cnt (C c) <=? off (C c) + 1); discriminate.
        -- unfold frontC. lia.
        -- intros k Hk'. unfold W, mtx; simpl. rewrite nth_upd_if by lia.
           destruct (Nat.eqb_spec (frontC c mod len) k) as [<-|Hne]; reflexivity.
        -- intros v. unfold vstep; cbn [fst snd]. rewrite H2, Hk0. reflexivity.
      * (* pc 3: advance (published or local) *)
        left. unfold eff_quiet, step_x, step_a; cbn [fst snd]; unfold stepC_a, opC_a. rewrite H3. cbv zeta.
        unfold finishC, localC, publishC.
        splits.
        -- destruct (det (C c)); unfold quiet, frontP, frontC; simpl; splits; auto; lia.
        -- intros v. unfold vstep; cbn [fst snd]. rewrite H3. reflexivity.
        -- intros _ _. destruct (det (C c)); simpl; discriminate.
      * (* pc 5: the store of a reset *)
        left. unfold eff_quiet, step_x, step_a; cbn [fst snd]; unfold stepC_a, opC_a. rewrite H5. cbv zeta.
        unfold finishC, localC, publishC.
        splits.
        -- destruct (det (C c)); unfold quiet, frontP, frontC; simpl; splits; auto; try lia; congruence.
        -- intros v. unfold vstep; cbn [fst snd]. rewrite H5. reflexivity.
        -- intros X; congruence.
    + (* Reset, at pc 0 *)
      unfold resetC_a. cbv zeta. splits.
      * unfold quiet, frontP, frontC; simpl; splits; auto.
      * reflexivity.
      * intros _ X. cbn [is_creset] in X. discriminate.
    + (* Detach, at pc 0 *)
      unfold detachC. cbv zeta. splits.
      * unfold quiet, frontP, frontC; simpl; splits; auto.
      * reflexivity.
      * intros _ _. simpl. rewrite E. discriminate.
Qed.

Lemma vstep_inv c s v : InvX len c -> VInv c v -> VInv (step_x len c s) (vstep c s v).
Proof.
  intros I VI.
  pose proof (frontP_lt len c I) as HfP. pose proof (frontC_le_posP len c I) as HfC.
  fold (frontP c) in HfP. fold (frontC c) in HfC.
  assert (HposP : pos (P c) <= frontP c) by (unfold frontP; lia).
  assert (HposC : pos (C c) <= frontC c) by (unfold frontC; lia).
  destruct (step_cases c s I) as [(Q & Hv & _)|[E|E]].
  - (* no slot is touched *)
    rewrite Hv. destruct Q as (Qm & Qp & Qc & _). destruct VI as [VL VV VR VO VS VB VG].
    assert (HW : forall k, W (step_x len c s) k = W c k) by (intros k; unfold W, mtx; rewrite Qm; reflexivity).
    constructor; auto.
    + intros k Hk Hw. rewrite HW in *. auto.
    + intros p Hp. rewrite HW. apply VR. lia.
    + lia.
    + eapply Forall_impl; [|exact VB]. cbv beta. intros a Ha. lia.
  - (* the producer writes the slot of position q = frontP c *)
    destruct E as (EP & EC & _ & EW & Ev). rewrite Ev.
    destruct VI as [VL VV VR VO VS VB VG].
    set (q := frontP c) in *.
    assert (Hk : q mod len < len) by (apply Nat.mod_upper_bound; lia).
    constructor; cbn [vals clog plog]; auto.
    + rewrite upd_length; exact VL.
    + intros k Hk' Hw. rewrite (EW k Hk') in *. rewrite nth_upd_if by lia.
      destruct (Nat.eqb (q mod len) k); [reflexivity | apply VV; assumption].
    + intros p Hp. rewrite EP, EC in Hp.
      assert (Hpl : p mod len < len) by (apply Nat.mod_upper_bound; lia).
      rewrite (EW _ Hpl).
      destruct (Nat.eqb_spec (q mod len) (p mod len)) as [Em|Hne].
      * apply (Ring.congr_eq len); [exact Hlen | exact Em | lia | lia].
      * apply VR. destruct (Nat.eq_dec p q) as [->|Hn]; [congruence | lia].
    + rewrite EC; exact VO.
    + rewrite EC; exact VB.
  - (* the consumer reads the slot of position q = frontC c *)
    destruct E as (EP & EC & _ & Hlt & EW & Ev). rewrite Ev.
    destruct VI as [VL VV VR VO VS VB VG].
    set (q := frontC c) in *.
    assert (Hk : q mod len < len) by (apply Nat.mod_upper_bound; lia).
    assert (Hcur : W c (q mod len) = q) by (apply VR; lia).
    constructor; cbn [vals clog plog]; auto.
    + intros k Hk' Hw. rewrite (EW k Hk') in *. apply VV; assumption.
    + intros p Hp. rewrite EP, EC in Hp.
      assert (Hpl : p mod len < len) by (apply Nat.mod_upper_bound; lia).
      rewrite (EW _ Hpl). apply VR. lia.
    + lia.
    + apply ssorted_snoc; [exact VS|].
      eapply Forall_impl; [|exact VB]. cbv beta. intros a Ha. lia.
    + apply Forall_app; split.
      * eapply Forall_impl; [|exact VB]. cbv beta. intros a Ha. lia.
      * constructor; [lia | constructor].
    + rewrite map_app, VG. cbn [map]. f_equal. f_equal.
      rewrite (VV _ Hk) by (rewrite Hcur; lia). rewrite Hcur. reflexivity.
Qed.

Lemma vstep_nr c s v :
  InvX len c -> VInv c v -> is_creset s = false -> NR c v -> NR (step_x len c s) (vstep c s v).
Proof.
  intros I VI Hs [N1 N2].
  destruct (step_cases c s I) as [(Q & Hv & Hpc)|[E|E]].
  - rewrite Hv. destruct Q as (_ & _ & _ & Qe). split; [apply Hpc; assumption|].
    rewrite Qe by assumption. exact N2.
  - destruct E as (_ & EC & Epc & _ & Ev). rewrite Ev. split; [rewrite Epc; exact N1|].
    cbn [plog]. rewrite EC. exact N2.
  - destruct E as (_ & EC & Epc & _ & _ & Ev). rewrite Ev. split; [exact Epc|].
    cbn [plog]. rewrite EC, N2. pose proof (v_lo c v VI) as Hlo.
    replace (frontC c + 1 - len) with (S (frontC c - len)) by lia.
    rewrite seq_S. f_equal. f_equal. lia.
Qed.

Lemma vinit_inv : VInv (init_x len) vinit0.
Proof.
  constructor; unfold vinit0, frontC, frontP, init_x; cbn [vals clog plog P C pos off].
  - rewrite map_length, seq_length. reflexivity.
  - intros k Hk Hw. exfalso. unfold W, mtx in Hw. cbn [metas] in Hw.
    rewrite nth_init_meta in Hw by exact Hk. cbn [wpos] in Hw. lia.
  - intros p Hp. lia.
  - lia.
  - constructor.
  - constructor.
  - reflexivity.
Qed.

Lemma vinit_nr : NR (init_x len) vinit0.
Proof.
  unfold NR, vinit0, frontC, init_x; cbn [plog C pos off pc]. split; [discriminate|].
  rewrite Nat.add_0_r, Nat.sub_diag. reflexivity.
Qed.

Lemma vexec_inv script : forall c v, InvX len c -> VInv c v ->
  InvX len (fst (vexec c v script)) /\ VInv (fst (vexec c v script)) (snd (vexec c v script)).
Proof.
  induction script as [|s r IH]; intros c v I VI; cbn [vexec]; [cbn [fst snd]; auto|].
  apply IH; [apply step_invx; assumption | apply vstep_inv; assumption].
Qed.

Lemma vexec_nr script : forall c v, InvX len c -> VInv c v ->
  forallb (fun s => negb (is_creset s)) script = true -> NR c v ->
  NR (fst (vexec c v script)) (snd (vexec c v script)).
Proof.
  induction script as [|s r IH]; intros c v I VI Hs N; cbn [vexec]; [cbn [fst snd]; auto|].
  cbn [forallb] in Hs. apply andb_true_iff in Hs. destruct Hs as [Hs Hr].
  apply negb_true_iff in Hs.
  apply IH; [apply step_invx; assumption | apply vstep_inv; assumption | exact Hr | apply vstep_nr; assumption].
Qed.
End Values.

(* The value state after running [script] from the initial configuration, the slots holding [init k]. *)
Definition vrun (len : nat) (pv init : nat -> nat) (script : list (bool * cmd)) : vst :=
  snd (vexec len pv (init_x len) (vinit0 len init) script).

Lemma vrun_inv len pv init script : 0 < len ->
  InvX len (exec_x len (init_x len) script) /\ VInv len pv (exec_x len (init_x len) script) (vrun len pv init script).
Proof.
  intros Hl.
  pose proof (vexec_inv len Hl pv script _ _ (init_invx len Hl) (vinit_inv len Hl pv init)) as [I VI].
  rewrite vexec_fst in I, VI. split; assumption.
Qed.

(** (1) Every value the consumer reads is the value pushed at the position it believes it is reading. *)
Theorem consumed_values_x : forall len pv init script, 0 < len ->
  let v := vrun len pv init script in
  clog v = map pv (plog v).
Proof.
  intros len pv init script Hl v. destruct (vrun_inv len pv init script Hl) as [_ VI].
  exact (v_log len pv _ _ VI).
Qed.

(** (2) The positions read are strictly increasing, start at [len], and lie below the position the producer has
    published: the consumed sequence is a subsequence of the pushed sequence, in order. *)
Theorem consumed_positions_increasing_x : forall len pv init script, 0 < len ->
  let c := exec_x len (init_x len) script in
  let v := vrun len pv init script in
  StronglySorted lt (plog v) /\ Forall (fun p => len <= p < publishedP c) (plog v).
Proof.
  intros len pv init script Hl c v. destruct (vrun_inv len pv init script Hl) as [I VI].
  fold c in I, VI. fold v in VI.
  split; [exact (v_srt len pv _ _ VI)|].
  pose proof (frontC_le_posP len c I) as HfC. pose proof (i_lpi len c I) as Hlpi.
  unfold publishedP. rewrite <- lastabs_last, Hlpi.
  eapply Forall_impl; [|exact (v_bd len pv _ _ VI)]. cbv beta. unfold frontC. intros a Ha. lia.
Qed.

(* the same, as an explicit statement about any two entries of the log *)
Corollary consumed_positions_lt_x : forall len pv init script i j, 0 < len ->
  let v := vrun len pv init script in
  i < j < length (plog v) -> nth i (plog v) 0 < nth j (plog v) 0.
Proof.
  intros len pv init script i j Hl v Hij.
  destruct (consumed_positions_increasing_x len pv init script Hl) as [S _].
  exact (ssorted_nth_lt _ S i j Hij).
Qed.

(* Scripts without a consumer [Reset] ([Reset] entries of the producer are no-ops of the machine). *)
Lemma vrun_nr len pv init script : 0 < len -> (forall j, ~ In (false, Reset j) script) ->
  NR len (exec_x len (init_x len) script) (vrun len pv init script).
Proof.
  intros Hl Hnr.
  assert (Hs : forallb (fun s => negb (is_creset s)) script = true).
  { apply forallb_forall. intros [[|] k] Hin; destruct k as [j n|j| | |]; try reflexivity.
    exfalso. exact (Hnr j Hin). }
  pose proof (vexec_nr len Hl pv script _ _ (init_invx len Hl) (vinit_inv len Hl pv init) Hs (vinit_nr len init))
    as N.
  rewrite vexec_fst in N. exact N.
Qed.

(** (3) Without resets the consumed sequence is exactly a prefix of the pushed sequence: nothing is lost. *)
Theorem no_consumer_reset_prefix_x : forall len pv init script, 0 < len ->
  (forall j, ~ In (false, Reset j) script) ->
  let v := vrun len pv init script in
  plog v = seq len (length (plog v)).
Proof.
  intros len pv init script Hl Hnr v. destruct (vrun_nr len pv init script Hl Hnr) as [_ N].
  fold v in N. rewrite N, seq_length. reflexivity.
Qed.

Theorem no_reset_prefix_x : forall len pv init script, 0 < len ->
  (forall t j, ~ In (t, Reset j) script) ->
  let v := vrun len pv init script in
  plog v = seq len (length (plog v)).
Proof.
  intros len pv init script Hl Hnr. apply no_consumer_reset_prefix_x; [exact Hl|].
  intros j. apply Hnr.
Qed.

(* Examples, len = 4 (capacity 3), the value pushed at position p is 100 + p, the slots initially hold 7.
   Shown: (clog, plog). *)
Definition pv_demo (p : nat) : nat := 100 + p.
Definition init_demo (k : nat) : nat := 7.
Definition logs (len : nat) (script : list (bool * cmd)) : list nat * list nat :=
  let v := vrun len pv_demo init_demo script in (clog v, plog v).

(* Stale reads on both sides, windows of 2, wrap-around (position 8 = slot 0, overwriting the item of position 4
   after it has been read). *)
Definition demo_stale : list (bool * cmd) :=
  [ sP 2; sP 2; sP 2; sP 2;              (* P: load+grant 2, write slots 0,1 (positions 4,5), publish -> pos 6 *)
    sP 1; sP 1; sP 1;                    (* P: grant 1 from ca, write slot 2 (position 6), publish    -> pos 7 *)
    (false, Op 1 2);                     (* C: STALE load: message 1 (P at 6), not the latest (P at 7): grant 2 *)
    sC 2; sC 2; sC 2;                    (* C: read slots 0,1 (positions 4,5), publish                -> pos 6 *)
    (true, Op 0 2);                      (* P: STALE load: sees C at 4: nothing free, no grant                  *)
    sP 2; sP 2; sP 2; sP 2;              (* P: load (C at 6): grant 2, write slots 3,0 (positions 7,8) -> pos 9 *)
    (false, Op 2 3);                     (* C: STALE load: message 2 (P at 7): 1 available < 3, no grant        *)
    sC 1; sC 1; sC 1;                    (* C: grant 1 from ca, read slot 2 (position 6), publish     -> pos 7 *)
    sC 2; sC 2; sC 2; sC 2 ].            (* C: load (P at 9): grant 2, read slots 3,0 (positions 7,8) -> pos 9 *)
Example demo_stale_logs :
  logs 4 demo_stale = ([104; 105; 106; 107; 108], [4; 5; 6; 7; 8])
  /\ summary (exec_x 4 (init_x 4) demo_stale) = (false, (1, 9, 0, 0), (1, 9, 0, 0, false), 9).
Proof. vm_compute. split; reflexivity. Qed.

(* RAx.v's reset demo: positions 5 and 6 are skipped by the reset; the slot of position 5 (slot 1) is overwritten
   by position 9 without ever having been read; what IS read is the value pushed at that position. *)
Example demo_reset_logs : logs 4 demo_reset = ([104; 107; 108; 109], [4; 7; 8; 9]).
Proof. vm_compute. reflexivity. Qed.

(* RAx.v's detached demo: reads made while detached (positions 4,5,6), a wrap into a slot read while detached
   (position 8 = slot 0), reads after re-attaching (7, 8). *)
Example demo_detached_logs : logs 4 demo_detached = ([104; 105; 106; 107; 108], [4; 5; 6; 7; 8]).
Proof. vm_compute. reflexivity. Qed.

(* A reset while detached (after reading position 4; positions 5, 6 skipped), then one more push and a pop. *)
Example demo_detached_reset_logs :
  logs 4 (firstn 6 demo_detached ++ [sC 1; sC 1; sC 1; kC (Reset 99); sC 0; kC Sync;
                                     sP 2; sP 2; sP 2; sP 2; sC 2; sC 2; sC 2; sC 2])
  = ([104; 107; 108], [4; 7; 8]).
Proof. vm_compute. reflexivity. Qed.

Print Assumptions consumed_values_x.
Print Assumptions consumed_positions_increasing_x.
Print Assumptions no_reset_prefix_x.
