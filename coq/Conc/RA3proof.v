(** Message lists and slot metadata of the three-stage release/acquire machines (RA3.v, RA3n.v, RA3x.v):
    the predicates their invariants are built from, and the list facts their proofs share. *)
Require Import MRB.Conc.RA MRB.Conc.RA3.
From Coq Require Import List Arith Lia.
Import ListNotations.

Section Ring.
Variable len : nat.
Hypothesis Hlen : 0 < len.

Definition sorted3 (M : list msg3) : Prop :=
  forall i j, i <= j -> j < length M -> mabs3 (nth i M dmsg3) <= mabs3 (nth j M dmsg3).
Definition lastabs3 (M : list msg3) : nat := mabs3 (nth (length M - 1) M dmsg3).

Definition wcover (m : meta3) (v : view3) : Prop :=
  match wt m with
  | TP => wpos3 m < wP3 v -> wclk3 m <= kp3 v
  | TW => wpos3 m < wW3 v -> wclk3 m <= kw3 v
  | TC => True
  end.

Lemma maxl a b c : a <= c -> b <= c -> Nat.max a b <= c. Proof. lia. Qed.
End Ring.

Lemma sorted3_app M x : sorted3 M -> lastabs3 M <= mabs3 x -> sorted3 (M ++ [x]).
Proof. exact (sorted_snoc mabs3 dmsg3 M x). Qed.
Lemma sorted3_last M i : sorted3 M -> i < length M -> mabs3 (nth i M dmsg3) <= lastabs3 M.
Proof. intros Hs Hi. unfold lastabs3. apply Hs; lia. Qed.
Lemma lastabs3_app M x : lastabs3 (M ++ [x]) = mabs3 x.
Proof. unfold lastabs3. rewrite app_length; simpl. replace (length M + 1 - 1) with (length M) by lia.
  rewrite nth_app_last; reflexivity. Qed.
Lemma lastabs3_last (M : list msg3) : lastabs3 M = mabs3 (last M dmsg3).
Proof. exact (f_equal mabs3 (nth_pred_last M dmsg3)). Qed.
Lemma Forall_nth_msg3 (Q : msg3 -> Prop) M i : Forall Q M -> i < length M -> Q (nth i M dmsg3).
Proof. intros F Hi. rewrite Forall_forall in F. apply F. apply nth_In; auto. Qed.

(* the slot metadata all three machines start from *)
Lemma nth_init_meta3 len k :
  k < len -> nth k (map (fun k => mkMeta3 TC k 0 k 0) (seq 0 len)) dmeta3 = mkMeta3 TC k 0 k 0.
Proof.
  intros Hk. rewrite (nth_indep _ dmeta3 (mkMeta3 TC 0 0 0 0)) by (rewrite map_length, seq_length; auto).
  change (mkMeta3 TC 0 0 0 0) with ((fun k => mkMeta3 TC k 0 k 0) 0).
  rewrite map_nth. rewrite seq_nth by auto. reflexivity.
Qed.
