(** * The three-stage release/acquire view machine with MULTI-SLOT operations: RA3x.v without resets and
      detached operation (RA3nproof.v shows it is that restriction).

    Three threads, producer P -> worker W -> consumer C.  P writes slots, W edits slots in place
    (a read-modify-write, treated by the detector as a write carrying the worker's clock), C reads slots.
    The consumer follows the worker's index, the worker follows the producer's, the producer follows the
    consumer's.  Index locations are append-only message lists (value, absolute position, view); a load may
    read any message at or after the loading thread's view (stale reads) and joins the view of the message read;
    a store appends a message carrying the storing thread's view; every slot access goes through the
    vector-clock race detector ([metas3], [race3]; last write epoch with writer id, consumer read clock).

    One operation handles a WINDOW of [cnt >= 1] consecutive ring slots.  A script entry is [(thread, read choice j, requested count n)].  The count is consulted only
    at pc 0, when an operation starts, and is remembered in the thread record (fields [cnt3], [off3]).

      pc 0  check : let n := max 1 (requested count)     -- a request of 0 items is treated as a request of 1
                    if n <= ca then grant (pc := 2, cnt := n, off := 0)
                    else load the successor's index (any admissible message, acquire),
                         ca := fresh availability ([pavail] for P, [dist] for W and C);
                         if n <= ca then grant else stay at pc 0
      pc 2  access ONE slot of the window: slot [wadd len ix off] at absolute position [pos + off]
                    (P: write; W: read-modify-write; C: read),
                    off := off + 1, and when off = cnt go to pc 3
      pc 3  publish: ix := wadd len ix cnt, pos := pos + cnt, ca := ca - cnt,
                    append the message with the thread's view (watermark pos + cnt), pc := 0.

    The booleans [acqP] / [acqW] / [acqC] say whether the index load of the producer / worker / consumer is
    (at least) Acquire, i.e. joins the view of the message read.  [stepP3_n], [stepW3_n], [stepC3_n], [exec3_n]
    are the machine with all three set; the examples at the end show that dropping a join makes the detector
    fire. *)
From Coq Require Import List Arith Bool.
Import ListNotations.
Require Import MRB.Conc.RA.
Require Import MRB.Conc.RA3.

(* The field names are those of RA3.v's thread and configuration records, which they shadow. *)
Record thr3n := mkT3n { ix3 : nat; ca3 : nat; V3 : view3; pc3 : nat; pos3 : nat; cnt3 : nat; off3 : nat }.
Record cfg3n := mkC3n { Mpi3 : list msg3; Mwi3 : list msg3; Mci3 : list msg3; metas3 : list meta3;
                        P3 : thr3n; W3 : thr3n; C3 : thr3n; race3 : bool }.

Definition vzero3 := mkV3 0 0 0 0 0 0 0 0 0.

Section M3n.
Variables (acqP acqW acqC : bool).
Variable len : nat.

Definition stepP3_a (j n0 : nat) (c : cfg3n) : cfg3n :=
  let t := P3 c in
  match pc3 t with
  | 0 =>
    let n := Nat.max 1 n0 in
    if n <=? ca3 t then
      mkC3n (Mpi3 c) (Mwi3 c) (Mci3 c) (metas3 c) (mkT3n (ix3 t) (ca3 t) (V3 t) 2 (pos3 t) n 0) (W3 c) (C3 c) (race3 c)
    else
      let i := pick (vci3 (V3 t)) (length (Mci3 c)) j in
      let m := nth i (Mci3 c) dmsg3 in
      let v0 := V3 t in
      let v1 := vjoin3 (mkV3 (vpi3 v0) (vwi3 v0) i (kp3 v0) (kw3 v0) (kc3 v0) (wP3 v0) (wW3 v0) (wC3 v0))
                       (if acqP then mview3 m else vzero3) in
      let a := pavail len (ix3 t) (mval3 m) in
      mkC3n (Mpi3 c) (Mwi3 c) (Mci3 c) (metas3 c)
            (mkT3n (ix3 t) a v1 (if n <=? a then 2 else 0) (pos3 t) n 0) (W3 c) (C3 c) (race3 c)
  | 2 =>
    let k := wadd len (ix3 t) (off3 t) in
    let mt := nth k (metas3 c) dmeta3 in
    let bad := negb (wcov TP mt (V3 t)) || negb (rclk3 mt <=? kc3 (V3 t)) in
    mkC3n (Mpi3 c) (Mwi3 c) (Mci3 c)
          (upd k (mkMeta3 TP (pos3 t + off3 t) (kp3 (V3 t)) (rpos3 mt) (rclk3 mt)) (metas3 c))
          (mkT3n (ix3 t) (ca3 t) (V3 t) (if cnt3 t <=? off3 t + 1 then 3 else 2) (pos3 t) (cnt3 t) (off3 t + 1))
          (W3 c) (C3 c) (race3 c || bad)
  | 3 =>
    let ix' := wadd len (ix3 t) (cnt3 t) in
    let p' := pos3 t + cnt3 t in
    let v0 := V3 t in
    let v1 := mkV3 (length (Mpi3 c)) (vwi3 v0) (vci3 v0) (kp3 v0) (kw3 v0) (kc3 v0) p' (wW3 v0) (wC3 v0) in
    let m := mkM3 ix' p' v1 in
    mkC3n (Mpi3 c ++ [m]) (Mwi3 c) (Mci3 c) (metas3 c)
          (mkT3n ix' (ca3 t - cnt3 t)
                 (mkV3 (vpi3 v1) (vwi3 v1) (vci3 v1) (S (kp3 v1)) (kw3 v1) (kc3 v1) (wP3 v1) (wW3 v1) (wC3 v1))
                 0 p' (cnt3 t) 0)
          (W3 c) (C3 c) (race3 c)
  | _ => c
  end.

Definition stepW3_a (j n0 : nat) (c : cfg3n) : cfg3n :=
  let t := W3 c in
  match pc3 t with
  | 0 =>
    let n := Nat.max 1 n0 in
    if n <=? ca3 t then
      mkC3n (Mpi3 c) (Mwi3 c) (Mci3 c) (metas3 c) (P3 c) (mkT3n (ix3 t) (ca3 t) (V3 t) 2 (pos3 t) n 0) (C3 c) (race3 c)
    else
      let i := pick (vpi3 (V3 t)) (length (Mpi3 c)) j in
      let m := nth i (Mpi3 c) dmsg3 in
      let v0 := V3 t in
      let v1 := vjoin3 (mkV3 i (vwi3 v0) (vci3 v0) (kp3 v0) (kw3 v0) (kc3 v0) (wP3 v0) (wW3 v0) (wC3 v0))
                       (if acqW then mview3 m else vzero3) in
      let a := dist len (ix3 t) (mval3 m) in
      mkC3n (Mpi3 c) (Mwi3 c) (Mci3 c) (metas3 c) (P3 c)
            (mkT3n (ix3 t) a v1 (if n <=? a then 2 else 0) (pos3 t) n 0) (C3 c) (race3 c)
  | 2 =>
    let k := wadd len (ix3 t) (off3 t) in
    let mt := nth k (metas3 c) dmeta3 in
    let bad := negb (wcov TW mt (V3 t)) || negb (rclk3 mt <=? kc3 (V3 t)) in
    mkC3n (Mpi3 c) (Mwi3 c) (Mci3 c)
          (upd k (mkMeta3 TW (pos3 t + off3 t) (kw3 (V3 t)) (rpos3 mt) (rclk3 mt)) (metas3 c))
          (P3 c)
          (mkT3n (ix3 t) (ca3 t) (V3 t) (if cnt3 t <=? off3 t + 1 then 3 else 2) (pos3 t) (cnt3 t) (off3 t + 1))
          (C3 c) (race3 c || bad)
  | 3 =>
    let ix' := wadd len (ix3 t) (cnt3 t) in
    let p' := pos3 t + cnt3 t in
    let v0 := V3 t in
    let v1 := mkV3 (vpi3 v0) (length (Mwi3 c)) (vci3 v0) (kp3 v0) (kw3 v0) (kc3 v0) (wP3 v0) p' (wC3 v0) in
    let m := mkM3 ix' p' v1 in
    mkC3n (Mpi3 c) (Mwi3 c ++ [m]) (Mci3 c) (metas3 c) (P3 c)
          (mkT3n ix' (ca3 t - cnt3 t)
                 (mkV3 (vpi3 v1) (vwi3 v1) (vci3 v1) (kp3 v1) (S (kw3 v1)) (kc3 v1) (wP3 v1) (wW3 v1) (wC3 v1))
                 0 p' (cnt3 t) 0)
          (C3 c) (race3 c)
  | _ => c
  end.

Definition stepC3_a (j n0 : nat) (c : cfg3n) : cfg3n :=
  let t := C3 c in
  match pc3 t with
  | 0 =>
    let n := Nat.max 1 n0 in
    if n <=? ca3 t then
      mkC3n (Mpi3 c) (Mwi3 c) (Mci3 c) (metas3 c) (P3 c) (W3 c) (mkT3n (ix3 t) (ca3 t) (V3 t) 2 (pos3 t) n 0) (race3 c)
    else
      let i := pick (vwi3 (V3 t)) (length (Mwi3 c)) j in
      let m := nth i (Mwi3 c) dmsg3 in
      let v0 := V3 t in
      let v1 := vjoin3 (mkV3 (vpi3 v0) i (vci3 v0) (kp3 v0) (kw3 v0) (kc3 v0) (wP3 v0) (wW3 v0) (wC3 v0))
                       (if acqC then mview3 m else vzero3) in
      let a := dist len (ix3 t) (mval3 m) in
      mkC3n (Mpi3 c) (Mwi3 c) (Mci3 c) (metas3 c) (P3 c) (W3 c)
            (mkT3n (ix3 t) a v1 (if n <=? a then 2 else 0) (pos3 t) n 0) (race3 c)
  | 2 =>
    let k := wadd len (ix3 t) (off3 t) in
    let mt := nth k (metas3 c) dmeta3 in
    let bad := negb (wcov TC mt (V3 t)) in
    mkC3n (Mpi3 c) (Mwi3 c) (Mci3 c)
          (upd k (mkMeta3 (wt mt) (wpos3 mt) (wclk3 mt) (pos3 t + off3 t) (kc3 (V3 t))) (metas3 c))
          (P3 c) (W3 c)
          (mkT3n (ix3 t) (ca3 t) (V3 t) (if cnt3 t <=? off3 t + 1 then 3 else 2) (pos3 t) (cnt3 t) (off3 t + 1))
          (race3 c || bad)
  | 3 =>
    let ix' := wadd len (ix3 t) (cnt3 t) in
    let p' := pos3 t + cnt3 t in
    let v0 := V3 t in
    let v1 := mkV3 (vpi3 v0) (vwi3 v0) (length (Mci3 c)) (kp3 v0) (kw3 v0) (kc3 v0) (wP3 v0) (wW3 v0) p' in
    let m := mkM3 ix' p' v1 in
    mkC3n (Mpi3 c) (Mwi3 c) (Mci3 c ++ [m]) (metas3 c) (P3 c) (W3 c)
          (mkT3n ix' (ca3 t - cnt3 t)
                 (mkV3 (vpi3 v1) (vwi3 v1) (vci3 v1) (kp3 v1) (kw3 v1) (S (kc3 v1)) (wP3 v1) (wW3 v1) (wC3 v1))
                 0 p' (cnt3 t) 0)
          (race3 c)
  | _ => c
  end.

Definition step3_a (c : cfg3n) (s : tid * nat * nat) : cfg3n :=
  let '(t, j, n) := s in
  match t with TP => stepP3_a j n c | TW => stepW3_a j n c | TC => stepC3_a j n c end.
Definition exec3_a (c : cfg3n) (script : list (tid * nat * nat)) : cfg3n := fold_left step3_a script c.

(* All three threads start at absolute position [len] (so that "one lap earlier" never underflows);
   slot k was last "written" by nobody that matters (writer id TC: always covered) and read at position k,
   with clock 0. *)
Definition init3_n : cfg3n :=
  mkC3n [mkM3 0 len (vinit len 0 0 0)] [mkM3 0 len (vinit len 0 0 0)] [mkM3 0 len (vinit len 0 0 0)]
        (map (fun k => mkMeta3 TC k 0 k 0) (seq 0 len))
        (mkT3n 0 0 (vinit len 1 0 0) 0 len 0 0) (mkT3n 0 0 (vinit len 0 1 0) 0 len 0 0)
        (mkT3n 0 0 (vinit len 0 0 1) 0 len 0 0) false.

End M3n.

Definition stepP3_n := stepP3_a true.
Definition stepW3_n := stepW3_a true.
Definition stepC3_n := stepC3_a true.
Definition step3_n := step3_a true true true.
Definition exec3_n := exec3_a true true true.

(* Examples, len = 4 (capacity 3).  [sP n] / [sW n] / [sC n] : one step of the producer / worker / consumer,
   always reading the latest message of the followed index (read choice 99), requested count n (only looked
   at when an operation starts). *)
Definition sP (n : nat) : tid * nat * nat := (TP, 99, n).
Definition sW (n : nat) : tid * nat * nat := (TW, 99, n).
Definition sC (n : nat) : tid * nat * nat := (TC, 99, n).

Definition demo3 : list (tid * nat * nat) :=
  [ sP 3; sP 3; sP 3; sP 3; sP 3;             (* P: load+grant 3, write slots 0,1,2, publish     -> ix 3 *)
    sW 2; sW 2; sW 2; sW 2;                   (* W: load+grant 2, edit slots 0,1, publish        -> ix 2 *)
    sC 2; sC 2; sC 2; sC 2;                   (* C: load+grant 2, read slots 0,1, publish        -> ix 2 *)
    sP 2; sW 1; sP 2; sW 1; sP 2; sW 1; sP 2; (* P: load+grant 2, write slots 3,0 (the window WRAPS),
                                                    publish -> ix 1, interleaved with
                                                 W: grant 1 from the remembered ca, edit slot 2,
                                                    publish -> ix 3 *)
    sW 2; sW 2; sW 2; sW 2;                   (* W: load+grant 2, edit slots 3,0 (wraps), publish -> ix 1 *)
    sC 3; sC 3; sC 3; sC 3; sC 3              (* C: load+grant 3, read slots 2,3,0 (wraps), publish -> ix 1 *)
  ].

Definition summary3 (c : cfg3n) :=
  (race3 c, (ix3 (P3 c), pos3 (P3 c), ca3 (P3 c), pc3 (P3 c)),
            (ix3 (W3 c), pos3 (W3 c), ca3 (W3 c), pc3 (W3 c)),
            (ix3 (C3 c), pos3 (C3 c), ca3 (C3 c), pc3 (C3 c))).

Example demo3_race_free :
  summary3 (exec3_n 4 (init3_n 4) demo3) = (false, (1, 9, 0, 0), (1, 9, 0, 0), (1, 9, 0, 0)).
Proof. vm_compute. reflexivity. Qed.

(* Same script, but the worker's load of the producer index does not join the message view (a Relaxed load):
   the worker's first edit of slot 0 is not ordered after the producer's write of it. *)
Example demo3_worker_relaxed_races :
  race3 (exec3_a true false true 4 (init3_n 4) demo3) = true.
Proof. vm_compute. reflexivity. Qed.

(* ... already after the worker's first slot access: *)
Example demo3_worker_relaxed_races_early :
  race3 (exec3_a true false true 4 (init3_n 4) [sP 3; sP 3; sP 3; sP 3; sP 3; sW 2; sW 2]) = true.
Proof. vm_compute. reflexivity. Qed.

(* Same script, consumer's load of the worker index relaxed: its read of slot 0 races with the worker's edit. *)
Example demo3_consumer_relaxed_races :
  race3 (exec3_a true true false 4 (init3_n 4) demo3) = true.
Proof. vm_compute. reflexivity. Qed.

(* Same script, producer's load of the consumer index relaxed: the producer's second window overwrites slot 0
   without being ordered after the worker's edit / the consumer's read of it. *)
Example demo3_producer_relaxed_races :
  race3 (exec3_a false true true 4 (init3_n 4) demo3) = true.
Proof. vm_compute. reflexivity. Qed.

(* A stale read simply does not grant: W reads the initial message (choice 0) and stays at pc 0. *)
Example demo3_stale_read :
  summary3 (exec3_n 4 (init3_n 4) [sP 3; sP 3; sP 3; sP 3; sP 3; (TW, 0, 2)])
  = (false, (3, 7, 0, 0), (0, 4, 0, 0), (0, 4, 0, 0)).
Proof. vm_compute. reflexivity. Qed.

(* A request larger than the capacity is never granted. *)
Example demo3_too_large :
  summary3 (exec3_n 4 (init3_n 4) [sP 4; sP 4; sP 4]) = (false, (0, 4, 3, 0), (0, 4, 0, 0), (0, 4, 0, 0)).
Proof. vm_compute. reflexivity. Qed.
