(** * C02 on the MULTI-SLOT three-stage release/acquire machine (RA3n.v): what the consumer reads.

    Values are threaded alongside the machine of RA3n.v exactly as RA3values.v does for RA3.v, but per SLOT ACCESS
    of a window: at a pc-2 step the producer stores [pv p] into the slot it accesses, where
    [p = pos + off] is the absolute position of that slot of its window; the worker replaces the value it finds
    in the slot by [f] of it; the consumer appends the value it finds to its log.

    For every script - any interleaving, any admissible stale read, any sequence of requested window sizes - the
    consumer's log is, at every moment (also in the middle of a window), the list
    [f (pv len); f (pv (len+1)); ...] of length "number of slots the consumer has accessed so far"
    ([consumed] = pos + off - len of the consumer): a prefix of the pushed sequence with the worker's
    transformation applied item by item, in order, nothing lost, duplicated, reordered or seen half-processed.

    The value invariant [VI] speaks of the slot metadata, the three frontiers and the value store only; of the
    race-freedom invariant it needs the order of the frontiers. *)
From Coq Require Import List Arith Lia.
Import ListNotations.
Require Import MRB.Conc.RA MRB.Conc.RA3 MRB.Conc.RA3proof MRB.Conc.RA3n MRB.Conc.RA3nproof.

Record vst := mkVst { vals : list nat; clog : list nat }.

(** frontier of a thread: absolute position of the next slot it will access *)
Definition fr (t : thr3n) : nat := pos3 t + off3 t.

Section ValuesN.
Variable len : nat.
Hypothesis Hlen : 0 < len.
Variables (pv f : nat -> nat) (init : nat -> nat).

(** ring slot the thread accesses at its next pc-2 step *)
Definition slot (t : thr3n) : nat := wadd len (ix3 t) (off3 t).

Definition vstepP (c : cfg3n) (v : vst) : vst :=
  if pc3 (P3 c) =? 2 then mkVst (upd (slot (P3 c)) (pv (fr (P3 c))) (vals v)) (clog v) else v.
Definition vstepW (c : cfg3n) (v : vst) : vst :=
  if pc3 (W3 c) =? 2 then mkVst (upd (slot (W3 c)) (f (nth (slot (W3 c)) (vals v) 0)) (vals v)) (clog v) else v.
Definition vstepC (c : cfg3n) (v : vst) : vst :=
  if pc3 (C3 c) =? 2 then mkVst (vals v) (clog v ++ [nth (slot (C3 c)) (vals v) 0]) else v.

Definition vstep_n (c : cfg3n) (s : tid * nat * nat) (v : vst) : vst :=
  match fst (fst s) with TP => vstepP c v | TW => vstepW c v | TC => vstepC c v end.

Fixpoint vexec_n (c : cfg3n) (v : vst) (script : list (tid * nat * nat)) : cfg3n * vst :=
  match script with
  | [] => (c, v)
  | s :: r => vexec_n (step3_n len c s) (vstep_n c s v) r
  end.

Definition vinit0 : vst := mkVst (map init (seq 0 len)) [].

(** number of slots the consumer has accessed so far (all three threads start at absolute position [len]) *)
Definition consumed (c : cfg3n) : nat := fr (C3 c) - len.

Definition val_of (m : meta3) : nat :=
  match wt m with TP => pv (wpos3 m) | TW => f (pv (wpos3 m)) | TC => init (wpos3 m) end.

(** The value invariant, over the slot metadata [ms], the frontiers [a] (producer), [b] (worker), [d] (consumer)
    and the value state. *)
Record VI (ms : list meta3) (a b d : nat) (v : vst) : Prop := mkVI {
  v_len : length (vals v) = len;
  
  v_val : forall k, k < len -> nth k (vals v) 0 = val_of (nth k ms dmeta3);
  (* worked, not yet consumed: last written by the worker at exactly that position *)
  v_e1 : forall p, d <= p < b -> wt (nth (p mod len) ms dmeta3) = TW /\ wpos3 (nth (p mod len) ms dmeta3) = p;
  (* pushed, not yet worked: last written by the producer at exactly that position *)
  v_e2 : forall p, b <= p < a -> wt (nth (p mod len) ms dmeta3) = TP /\ wpos3 (nth (p mod len) ms dmeta3) = p;
  v_log : clog v = map (fun p => f (pv p)) (seq len (d - len));
  v_pos : len <= d
}.

Definition VInv (c : cfg3n) (v : vst) : Prop :=
  VI (metas3 c) (fr (P3 c)) (fr (W3 c)) (fr (C3 c)) v.

Lemma VI_eq ms a b d v a' b' d' : VI ms a b d v -> a = a' -> b = b' -> d = d' -> VI ms a' b' d' v.
Proof. intros V Ea Eb Ed. subst a' b' d'. exact V. Qed.

Lemma VI_P ms a b d v k0 x y z :
  VI ms a b d v -> length ms = len -> d <= b -> b <= a -> a + 1 <= d + len -> k0 = a mod len ->
  VI (upd k0 (mkMeta3 TP a x y z) ms) (a + 1) b d (mkVst (upd k0 (pv a) (vals v)) (clog v)).
Proof.
  intros [VL VV E1 E2 LG VP] LM Hdb Hba Hcap Ek. subst k0.
  assert (Hk : a mod len < len) by (apply Nat.mod_upper_bound; lia).
  constructor; cbn [vals clog].
  - rewrite upd_length. exact VL.
  - intros k Hk'. destruct (Nat.eq_dec (a mod len) k) as [Ek|Hne].
    + subst k.
      rewrite nth_upd_eq by (rewrite ?VL, ?LM; exact Hk).
      rewrite nth_upd_eq by (rewrite ?VL, ?LM; exact Hk).
      reflexivity.
    + rewrite nth_upd_neq by exact Hne. rewrite nth_upd_neq by exact Hne. apply VV. exact Hk'.
  - intros p Hp. destruct (Nat.eq_dec (a mod len) (p mod len)) as [E|Hne].
    + exfalso. assert (Hap : a = p) by (apply (Ring.congr_eq len); [exact Hlen | exact E | lia | lia]). lia.
    + rewrite nth_upd_neq by exact Hne. apply E1. exact Hp.
  - intros p Hp. destruct (Nat.eq_dec (a mod len) (p mod len)) as [E|Hne].
    + assert (Hap : a = p) by (apply (Ring.congr_eq len); [exact Hlen | exact E | lia | lia]). subst p.
      rewrite nth_upd_eq by (rewrite LM; exact Hk). cbn [wt wpos3]. split; reflexivity.
    + rewrite nth_upd_neq by exact Hne. apply E2.
      assert (Hpa : p <> a) by (intros Epa; apply Hne; rewrite Epa; reflexivity). lia.
  - exact LG.
  - exact VP.
Qed.

Lemma VI_W ms a b d v k0 x y z :
  VI ms a b d v -> length ms = len -> d <= b -> b < a -> a <= d + len -> k0 = b mod len ->
  VI (upd k0 (mkMeta3 TW b x y z) ms) a (b + 1) d
     (mkVst (upd k0 (f (nth k0 (vals v) 0)) (vals v)) (clog v)).
Proof.
  intros [VL VV E1 E2 LG VP] LM Hdb Hba Hcap Ek. subst k0.
  assert (Hk : b mod len < len) by (apply Nat.mod_upper_bound; lia).
  assert (Cur : wt (nth (b mod len) ms dmeta3) = TP /\ wpos3 (nth (b mod len) ms dmeta3) = b) by (apply E2; lia).
  destruct Cur as [CW CP].
  constructor; cbn [vals clog].
  - rewrite upd_length. exact VL.
  - intros k Hk'. destruct (Nat.eq_dec (b mod len) k) as [Ek|Hne].
    + subst k.
      rewrite nth_upd_eq by (rewrite ?VL, ?LM; exact Hk).
      rewrite nth_upd_eq by (rewrite ?VL, ?LM; exact Hk).
      rewrite VV by exact Hk. unfold val_of. rewrite CW, CP. reflexivity.
    + rewrite nth_upd_neq by exact Hne. rewrite nth_upd_neq by exact Hne. apply VV. exact Hk'.
  - intros p Hp. destruct (Nat.eq_dec (b mod len) (p mod len)) as [E|Hne].
    + assert (Hbp : b = p) by (apply (Ring.congr_eq len); [exact Hlen | exact E | lia | lia]). subst p.
      rewrite nth_upd_eq by (rewrite LM; exact Hk). cbn [wt wpos3]. split; reflexivity.
    + rewrite nth_upd_neq by exact Hne. apply E1.
      assert (Hpb : p <> b) by (intros Epb; apply Hne; rewrite Epb; reflexivity). lia.
  - intros p Hp. destruct (Nat.eq_dec (b mod len) (p mod len)) as [E|Hne].
    + exfalso. assert (Hbp : b = p) by (apply (Ring.congr_eq len); [exact Hlen | exact E | lia | lia]). lia.
    + rewrite nth_upd_neq by exact Hne. apply E2. lia.
  - exact LG.
  - exact VP.
Qed.

Lemma VI_C ms a b d v k0 x y :
  VI ms a b d v -> length ms = len -> d < b -> k0 = d mod len ->
  VI (upd k0 (mkMeta3 (wt (nth k0 ms dmeta3)) (wpos3 (nth k0 ms dmeta3)) (wclk3 (nth k0 ms dmeta3)) x y) ms)
     a b (d + 1) (mkVst (vals v) (clog v ++ [nth k0 (vals v) 0])).
Proof.
  intros [VL VV E1 E2 LG VP] LM Hdb Ek. subst k0.
  assert (Hk : d mod len < len) by (apply Nat.mod_upper_bound; lia).
  assert (Cur : wt (nth (d mod len) ms dmeta3) = TW /\ wpos3 (nth (d mod len) ms dmeta3) = d) by (apply E1; lia).
  destruct Cur as [CW CP].
  set (ms' := upd (d mod len) _ ms).
  assert (Hsame : forall k, wt (nth k ms' dmeta3) = wt (nth k ms dmeta3) /\
                            wpos3 (nth k ms' dmeta3) = wpos3 (nth k ms dmeta3)).
  { intros k. unfold ms'. destruct (Nat.eq_dec (d mod len) k) as [Ek|Hne].
    - subst k. rewrite nth_upd_eq by (rewrite LM; exact Hk). cbn [wt wpos3]. split; reflexivity.
    - rewrite nth_upd_neq by exact Hne. split; reflexivity. }
  constructor; cbn [vals clog].
  - exact VL.
  - intros k Hk'. rewrite VV by exact Hk'. unfold val_of.
    destruct (Hsame k) as [Hw Hp]. rewrite Hw, Hp. reflexivity.
  - intros p Hp. destruct (Hsame (p mod len)) as [Hw Hq]. rewrite Hw, Hq. apply E1. lia.
  - intros p Hp. destruct (Hsame (p mod len)) as [Hw Hq]. rewrite Hw, Hq. apply E2. exact Hp.
  - rewrite LG. replace (d + 1 - len) with (S (d - len)) by lia.
    rewrite seq_S, map_app. cbn [map]. f_equal. f_equal.
    rewrite VV by exact Hk. unfold val_of. rewrite CW, CP.
    replace (len + (d - len)) with d by lia. reflexivity.
  - lia.
Qed.

Lemma frontier_facts c : Inv3n len c ->
  fr (C3 c) <= fr (W3 c) /\ fr (W3 c) <= fr (P3 c) /\ fr (P3 c) + 1 <= fr (C3 c) + len /\
  off3 (P3 c) <= len /\ off3 (W3 c) <= len /\ off3 (C3 c) <= len /\
  (pc3 (W3 c) = 2 -> fr (W3 c) < fr (P3 c)) /\ (pc3 (C3 c) = 2 -> fr (C3 c) < fr (W3 c)).
Proof.
  intros I. pose proof (behind3n len c I) as B.
  pose proof (off_le_ca_n _ (k_pcP len c I)) as HoP. pose proof (off_le_ca_n _ (k_pcW len c I)) as HoW.
  pose proof (off_le_ca_n _ (k_pcC len c I)) as HoC. unfold fr.
  splits; try lia; intros E.
  - destruct (k_pcW len c I) as [[X _]|[(_&X&Y)|(X&_)]]; [congruence | lia | congruence].
  - destruct (k_pcC len c I) as [[X _]|[(_&X&Y)|(X&_)]]; [congruence | lia | congruence].
Qed.

(* a step that accesses no slot moves no frontier *)
Ltac same_frontiers V := eapply VI_eq; [exact V | unfold fr; cbn [P3 W3 C3 pos3 off3]; lia ..].

Lemma P_vstep c v j n0 : Inv3n len c -> VInv c v -> VInv (stepP3_n len j n0 c) (vstepP c v).
Proof.
  intros I V. destruct (frontier_facts c I) as (F1&F2&F3&FP&FW&FC&GW&GC).
  pose proof (k_metas len c I) as LM. unfold VInv in *. unfold vstepP.
  remember (stepP3_n len j n0 c) as c' eqn:E. unfold stepP3_n, stepP3_a in E.
  destruct (k_pcP len c I) as [[Hpc Hoff]|[(Hpc&Hoff&Hcnt)|(Hpc&Hoff&Hcnt)]]; rewrite Hpc in E |- *; cbn [Nat.eqb];
    cbv beta iota zeta in E; subst c'.
  - destruct (Nat.max 1 n0 <=? ca3 (P3 c)); same_frontiers V.
  - assert (Hk0 : slot (P3 c) = fr (P3 c) mod len)
      by (unfold slot; rewrite (k_ixP len c I); apply wadd_mod; assumption).
    change (wadd len (ix3 (P3 c)) (off3 (P3 c))) with (slot (P3 c)).
    change (pos3 (P3 c) + off3 (P3 c)) with (fr (P3 c)).
    cbn [metas3 P3 W3 C3].
    eapply VI_eq;
      [ eapply VI_P; [exact V | exact LM | exact F1 | exact F2 | exact F3 | exact Hk0]
      | unfold fr; cbn [pos3 off3]; lia .. ].
  - same_frontiers V.
Qed.

Lemma W_vstep c v j n0 : Inv3n len c -> VInv c v -> VInv (stepW3_n len j n0 c) (vstepW c v).
Proof.
  intros I V. destruct (frontier_facts c I) as (F1&F2&F3&FP&FW&FC&GW&GC).
  pose proof (k_metas len c I) as LM. unfold VInv in *. unfold vstepW.
  remember (stepW3_n len j n0 c) as c' eqn:E. unfold stepW3_n, stepW3_a in E.
  destruct (k_pcW len c I) as [[Hpc Hoff]|[(Hpc&Hoff&Hcnt)|(Hpc&Hoff&Hcnt)]]; rewrite Hpc in E |- *; cbn [Nat.eqb];
    cbv beta iota zeta in E; subst c'.
  - destruct (Nat.max 1 n0 <=? ca3 (W3 c)); same_frontiers V.
  - assert (Hk0 : slot (W3 c) = fr (W3 c) mod len)
      by (unfold slot; rewrite (k_ixW len c I); apply wadd_mod; assumption).
    change (wadd len (ix3 (W3 c)) (off3 (W3 c))) with (slot (W3 c)).
    change (pos3 (W3 c) + off3 (W3 c)) with (fr (W3 c)).
    cbn [metas3 P3 W3 C3].
    eapply VI_eq;
      [ eapply VI_W; [exact V | exact LM | exact F1 | exact (GW Hpc) | lia | exact Hk0]
      | unfold fr; cbn [pos3 off3]; lia .. ].
  - same_frontiers V.
Qed.

Lemma C_vstep c v j n0 : Inv3n len c -> VInv c v -> VInv (stepC3_n len j n0 c) (vstepC c v).
Proof.
  intros I V. destruct (frontier_facts c I) as (F1&F2&F3&FP&FW&FC&GW&GC).
  pose proof (k_metas len c I) as LM. unfold VInv in *. unfold vstepC.
  remember (stepC3_n len j n0 c) as c' eqn:E. unfold stepC3_n, stepC3_a in E.
  destruct (k_pcC len c I) as [[Hpc Hoff]|[(Hpc&Hoff&Hcnt)|(Hpc&Hoff&Hcnt)]]; rewrite Hpc in E |- *; cbn [Nat.eqb];
    cbv beta iota zeta in E; subst c'.
  - destruct (Nat.max 1 n0 <=? ca3 (C3 c)); same_frontiers V.
  - assert (Hk0 : slot (C3 c) = fr (C3 c) mod len)
      by (unfold slot; rewrite (k_ixC len c I); apply wadd_mod; assumption).
    change (wadd len (ix3 (C3 c)) (off3 (C3 c))) with (slot (C3 c)).
    change (pos3 (C3 c) + off3 (C3 c)) with (fr (C3 c)).
    cbn [metas3 P3 W3 C3].
    eapply VI_eq;
      [ eapply VI_C; [exact V | exact LM | exact (GC Hpc) | exact Hk0]
      | unfold fr; cbn [pos3 off3]; lia .. ].
  - same_frontiers V.
Qed.

Lemma vstep_n_inv c v s : Inv3n len c -> VInv c v -> VInv (step3_n len c s) (vstep_n c s v).
Proof.
  intros I V. destruct s as [[[| |] j] n0].
  - exact (P_vstep c v j n0 I V).
  - exact (W_vstep c v j n0 I V).
  - exact (C_vstep c v j n0 I V).
Qed.

Lemma vinit_n_inv : VInv (init3_n len) vinit0.
Proof.
  unfold VInv, vinit0, init3_n, fr. cbn [metas3 P3 W3 C3 pos3 off3].
  constructor; cbn [vals clog].
  - rewrite map_length, seq_length. reflexivity.
  - intros k Hk. rewrite nth_init_meta3 by exact Hk. unfold val_of. cbn [wt wpos3].
    rewrite (nth_indep _ 0 (init 0)) by (rewrite map_length, seq_length; exact Hk).
    rewrite map_nth, seq_nth by exact Hk. reflexivity.
  - intros p Hp. lia.
  - intros p Hp. lia.
  - replace (len + 0 - len) with 0 by lia. reflexivity.
  - lia.
Qed.

Theorem vexec_n_inv script : forall c v, Inv3n len c -> VInv c v ->
  Inv3n len (fst (vexec_n c v script)) /\ VInv (fst (vexec_n c v script)) (snd (vexec_n c v script)).
Proof.
  induction script as [|s r IH]; intros c v I V.
  - cbn [vexec_n fst snd]. split; [exact I | exact V].
  - cbn [vexec_n]. apply IH; [apply step3n_inv; [exact Hlen | exact I] | apply vstep_n_inv; [exact I | exact V]].
Qed.

Lemma vexec_n_fst script : forall c v, fst (vexec_n c v script) = exec3_n len c script.
Proof.
  induction script as [|s r IH]; intros c v.
  - reflexivity.
  - cbn [vexec_n]. rewrite IH. reflexivity.
Qed.
End ValuesN.

(** The consumer's log is [f (pv len); f (pv (len+1)); ...], one entry per slot it has accessed so far; the
    configuration is the one the machine of RA3n.v reaches on that script, and it is race free. *)
Theorem consumed_is_prefix_n len pv f init script : 0 < len ->
  let '(c, v) := vexec_n len pv f (init3_n len) (vinit0 len init) script in
  c = exec3_n len (init3_n len) script /\
  clog v = map (fun p => f (pv p)) (seq len (consumed len c)) /\
  race3 c = false.
Proof.
  intros Hl.
  pose proof (vexec_n_inv len Hl pv f init script _ _ (init3n_inv len Hl) (vinit_n_inv len Hl pv f init)) as [I V].
  pose proof (vexec_n_fst len pv f script (init3_n len) (vinit0 len init)) as E.
  destruct (vexec_n len pv f (init3_n len) (vinit0 len init) script) as [c v]. cbn [fst snd] in *.
  split; [exact E | split; [exact (v_log _ _ _ _ _ _ _ _ _ V) | exact (k_race len c I)]].
Qed.

(** Between two operations of the consumer (pc 0) the window is empty, so the log has exactly
    [pos3 (C3 c) - len] entries: the whole of every published window, nothing else. *)
Corollary consumed_between_ops len pv f init script : 0 < len ->
  let '(c, v) := vexec_n len pv f (init3_n len) (vinit0 len init) script in
  pc3 (C3 c) = 0 ->
  length (clog v) = pos3 (C3 c) - len /\
  clog v = map (fun p => f (pv p)) (seq len (pos3 (C3 c) - len)).
Proof.
  intros Hl.
  pose proof (vexec_n_inv len Hl pv f init script _ _ (init3n_inv len Hl) (vinit_n_inv len Hl pv f init)) as [I V].
  destruct (vexec_n len pv f (init3_n len) (vinit0 len init) script) as [c v]. cbn [fst snd] in *.
  intros Hpc0.
  pose proof (pc0_off3 _ (k_pcC len c I) Hpc0) as Hoff.
  pose proof (v_log _ _ _ _ _ _ _ _ _ V) as LG. unfold fr in LG. rewrite Hoff, Nat.add_0_r in LG.
  split; [|exact LG]. rewrite LG, map_length, seq_length. reflexivity.
Qed.

(** In general the log length is the number of slots accessed, at most the worker's published position. *)
Corollary consumed_length len pv f init script : 0 < len ->
  let '(c, v) := vexec_n len pv f (init3_n len) (vinit0 len init) script in
  length (clog v) = pos3 (C3 c) + off3 (C3 c) - len /\ pos3 (C3 c) + off3 (C3 c) <= pos3 (W3 c).
Proof.
  intros Hl.
  pose proof (vexec_n_inv len Hl pv f init script _ _ (init3n_inv len Hl) (vinit_n_inv len Hl pv f init)) as [I V].
  destruct (vexec_n len pv f (init3_n len) (vinit0 len init) script) as [c v]. cbn [fst snd] in *.
  pose proof (v_log _ _ _ _ _ _ _ _ _ V) as LG. unfold fr in LG.
  split; [rewrite LG, map_length, seq_length; reflexivity|].
  pose proof (behind3n len c I). pose proof (off_le_ca_n _ (k_pcC len c I)). lia.
Qed.

(* Examples, len = 4 (capacity 3), pushed values pv p = 10 * p, worker transformation f = S, slots initially 0.
   Shown: (summary3 of the configuration, value store, consumer log).                                      *)
Definition show_n (r : cfg3n * vst) := (summary3 (fst r), vals (snd r), clog (snd r)).
Definition run_n (len : nat) (s : list (tid * nat * nat)) :=
  show_n (vexec_n len (fun p => 10 * p) S (init3_n len) (vinit0 len (fun _ => 0)) s).

(* [demo3] of RA3n.v: windows of 3 / 2 / 2 / 2+1 / 2 / 3 slots, the producer's and the worker's second window
   and the consumer's last window WRAP (slots 3,0 and 2,3,0).  Positions 4..8 are consumed, in order, each
   transformed exactly once; slot 0 holds position 8's value, slots 1..3 positions 5..7. *)
Example demo3_values :
  run_n 4 demo3 = ((false, (1, 9, 0, 0), (1, 9, 0, 0), (1, 9, 0, 0)), [81; 51; 61; 71], [41; 51; 61; 71; 81]).
Proof. vm_compute. reflexivity. Qed.

(* Stale reads.  P pushes a window of 3; W works a window of 1 and then one of 2 (two messages).  C asks for 2
   and reads the worker's INITIAL message (choice 0), then its FIRST (choice 1, stale): no grant; asks for 1:
   granted from the remembered availability; after that window the stale message gives 0; the latest one grants
   2.  C stops in the MIDDLE of that window (pc 2, pos 5, off 1): the log has pos + off - len = 2 entries. *)
Definition stale3 : list (tid * nat * nat) :=
  [ sP 3; sP 3; sP 3; sP 3; sP 3;
    sW 1; sW 1; sW 1;
    sW 2; sW 2; sW 2; sW 2;
    (TC, 0, 2); (TC, 1, 2); (TC, 1, 1); sC 1; sC 1;
    (TC, 1, 2); sC 2; sC 2 ].

Example stale3_values :
  run_n 4 stale3 = ((false, (3, 7, 0, 0), (3, 7, 0, 0), (1, 5, 2, 2)), [41; 51; 61; 0], [41; 51]).
Proof. vm_compute. reflexivity. Qed.

Example stale3_consumed :
  consumed 4 (exec3_n 4 (init3_n 4) stale3) = 2 /\ off3 (C3 (exec3_n 4 (init3_n 4) stale3)) = 1.
Proof. vm_compute. split; reflexivity. Qed.

(* ... continued: C finishes its window; P pushes a second window of 3 (slots 3,0,1: wraps); W works it; C's
   request for 3 is granted only after W has published, and C has read slots 3,0 so far (pc 2, pos 7, off 2). *)
Example stale3_wrap_values :
  run_n 4 (stale3 ++ [sC 2; sC 2;
                      sP 3; sP 3; sP 3; sP 3; sP 3;
                      sW 3; sW 3; sW 3; sC 3; sW 3; sW 3; sC 3; sC 3; sC 3])
  = ((false, (2, 10, 0, 0), (2, 10, 0, 0), (3, 7, 3, 2)), [81; 91; 61; 71], [41; 51; 61; 71; 81]).
Proof. vm_compute. reflexivity. Qed.

Print Assumptions consumed_is_prefix_n.
