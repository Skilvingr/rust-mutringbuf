(** * Race freedom of the two-stage release/acquire machine (RAx.v), every [len > 0], every script.
    The only invariant proof for the two-stage machines: RAnproof.v obtains RAn.v and RA.v from it.

    [InvX] speaks of the "frontier" [pos + off] of a thread: a recorded slot access sits strictly below the
    frontier of the thread that made it, and [ca] is bounded by what the thread has seen of the other index.
    - The consumer's PUBLISHED position [lastabs (Mci c)] is only <= its LOCAL position ([i_lci]; [i_att]: equal
      while attached).  That is enough: the producer's availability bound [i_caP] goes through the consumer
      MESSAGE it saw ([seenPx]), i.e. through a published position, so all it may write lies below
      [published + len] <= [pos C + len]; the consumer reads at positions >= [pos C] >= published.  The watermark
      of a consumer message is its own (published) position, and later reads are at positions >= the local position
      at that time, so old views stay valid ([growsx]) whether or not the later advance is published.
    - Between the load and the store of a reset (pc 5) the loaded position is not behind the local one: the
      message read is at or after the consumer's view, [i_caC] says everything the consumer was ever granted lies
      at or below the message AT its view, and the message list is sorted by position.
    - The slot accesses rest on "congruent modulo len and closer than len => not above" ([congr_le]): the other
      thread's last access of the slot is a lap away, hence under the watermark acquired with the availability. *)
Require Import MRB.Conc.RA MRB.Conc.RAproof MRB.Conc.RAx.
From Coq Require Import List Arith Lia Bool.
Import ListNotations.

Local Arguments Nat.max : simpl never.

Section InvX.
Variable len : nat.

Definition mtx (c : cfg_x) (k : nat) : meta := nth k (metas c) dmeta.

Definition view_okx (c : cfg_x) (v : view) : Prop :=
  vpi v < length (Mpi c) /\ vci v < length (Mci c) /\
  wP v <= pos (P c) /\ wC v <= pos (C c) /\
  mabs (nth (vpi v) (Mpi c) dmsg) <= wP v /\
  mabs (nth (vci v) (Mci c) dmsg) <= wC v /\
  (forall k, k < len -> wpos (mtx c k) < wP v -> wclk (mtx c k) <= kp v) /\
  (forall k, k < len -> rpos (mtx c k) < wC v -> rclk (mtx c k) <= kc v).

Definition msg_okx (c : cfg_x) (m : msg) : Prop :=
  mval m = mabs m mod len /\ view_okx c (mview m).

Definition seenPx (c : cfg_x) := mabs (nth (vci (V (P c))) (Mci c) dmsg).
Definition seenCx (c : cfg_x) := mabs (nth (vpi (V (C c))) (Mpi c) dmsg).

(* pc 0: no window; pc 2: window granted, [off] slots done, more to do; pc 3: window done, index not yet moved *)
Definition pc_ok (t : thr_x) : Prop :=
  (pc t = 0 /\ off t = 0) \/
  (pc t = 2 /\ off t < cnt t /\ cnt t <= ca t) \/
  (pc t = 3 /\ off t = cnt t /\ cnt t <= ca t).

Definition pc_okC (c : cfg_x) : Prop :=
  pc_ok (C c) \/
  (pc (C c) = 5 /\ off (C c) = 0 /\ pos (C c) <= npos (C c) /\ npos (C c) <= seenCx c /\
   nix (C c) = npos (C c) mod len).

Record InvX (c : cfg_x) : Prop := mkInvX {
  i_metas : length (metas c) = len;
  i_npi : 0 < length (Mpi c);
  i_nci : 0 < length (Mci c);
  i_spi : sorted (Mpi c);
  i_sci : sorted (Mci c);
  i_lpi : lastabs (Mpi c) = pos (P c);
  i_lci : lastabs (Mci c) <= pos (C c);                        (* published position <= local position *)
  i_att : det (C c) = false -> lastabs (Mci c) = pos (C c);
  i_mpi : Forall (msg_okx c) (Mpi c);
  i_mci : Forall (msg_okx c) (Mci c);
  i_wpi : forall i, i < length (Mpi c) -> mabs (nth i (Mpi c) dmsg) <= wP (mview (nth i (Mpi c) dmsg));
  i_wci : forall i, i < length (Mci c) -> mabs (nth i (Mci c) dmsg) <= wC (mview (nth i (Mci c) dmsg));
  i_vP : view_okx c (V (P c));
  i_vC : view_okx c (V (C c));
  i_ixP : ix (P c) = pos (P c) mod len;
  i_ixC : ix (C c) = pos (C c) mod len;
  i_caP : ca (P c) + pos (P c) + 1 <= seenPx c + len;
  i_caC : ca (C c) + pos (C c) <= seenCx c;
  i_pcP : pc_ok (P c);
  i_pcC : pc_okC c;
  i_slot : forall k, k < len ->
     wpos (mtx c k) mod len = k /\ rpos (mtx c k) mod len = k /\
     wpos (mtx c k) < pos (P c) + off (P c) /\ rpos (mtx c k) < pos (C c) + off (C c) /\
     wclk (mtx c k) <= kp (V (P c)) /\ rclk (mtx c k) <= kc (V (C c));
  i_race : race c = false
}.

Definition growsx (c c' : cfg_x) : Prop :=
  (exists xs, Mpi c' = Mpi c ++ xs) /\ (exists ys, Mci c' = Mci c ++ ys) /\
  pos (P c) <= pos (P c') /\ pos (C c) <= pos (C c') /\
  (forall k, k < len ->
     (mtx c' k = mtx c k) \/
     (pos (P c) <= wpos (mtx c' k) /\ rpos (mtx c' k) = rpos (mtx c k) /\ rclk (mtx c' k) = rclk (mtx c k)) \/
     (pos (C c) <= rpos (mtx c' k) /\ wpos (mtx c' k) = wpos (mtx c k) /\ wclk (mtx c' k) = wclk (mtx c k))).

Lemma view_okx_grows c c' v : growsx c c' -> view_okx c v -> view_okx c' v.
Proof.
  intros (Hpi & Hci & HpP & HpC & Hm) (H1 & H2 & H3 & H4 & H5 & H6 & H7 & H8).
  destruct Hpi as [xs Hpi]. destruct Hci as [ys Hci].
  unfold view_okx. rewrite Hpi, Hci, !app_length.
  repeat split; try lia.
  - rewrite app_nth1 by lia; auto.
  - rewrite app_nth1 by lia; auto.
  - intros k Hk Hw. destruct (Hm k Hk) as [E|[(E1&E2&E3)|(E1&E2&E3)]].
    + rewrite E in *; auto.
    + lia.
    + rewrite E2, E3 in *; auto.
  - intros k Hk Hw. destruct (Hm k Hk) as [E|[(E1&E2&E3)|(E1&E2&E3)]].
    + rewrite E in *; auto.
    + rewrite E2, E3 in *; auto.
    + lia.
Qed.

Lemma msgs_okx_grows c c' M : growsx c c' -> Forall (msg_okx c) M -> Forall (msg_okx c') M.
Proof.
  intros G F. eapply Forall_impl; [|exact F].
  intros m [A B]; split; auto. eapply view_okx_grows; eauto.
Qed.

(* [view_okx] looks at a configuration only through its message lists, slot records and the two positions:
   it is [view_ok] (RAproof.v) of a configuration of RA.v with the same ones. *)
Lemma view_okx_join c a b : view_okx c a -> view_okx c b -> view_okx c (vjoin a b).
Proof.
  exact (vjoin_ok len (mkC (Mpi c) (Mci c) (metas c) (mkT 0 0 a 0 (pos (P c))) (mkT 0 0 a 0 (pos (C c))) false) a b).
Qed.

Lemma seenCx_le_posP c : InvX c -> seenCx c <= pos (P c).
Proof.
  intros I. rewrite <- (i_lpi c I). destruct (i_vC c I) as (A&_). exact (sorted_last _ _ (i_spi c I) A).
Qed.
Lemma seenPx_le_published c : InvX c -> seenPx c <= lastabs (Mci c).
Proof. intros I. destruct (i_vP c I) as (_&A&_). exact (sorted_last _ _ (i_sci c I) A). Qed.
Lemma seenPx_le_posC c : InvX c -> seenPx c <= pos (C c).
Proof. intros I. exact (Nat.le_trans _ _ _ (seenPx_le_published c I) (i_lci c I)). Qed.

Lemma behindx c : InvX c ->
  ca (C c) + pos (C c) <= pos (P c) /\ ca (P c) + pos (P c) + 1 <= lastabs (Mci c) + len.
Proof.
  intros I. pose proof (i_caC c I). pose proof (seenCx_le_posP c I).
  pose proof (i_caP c I). pose proof (seenPx_le_published c I). lia.
Qed.

Lemma posC_le_posPx c : InvX c -> pos (C c) <= pos (P c).
Proof. intros I. pose proof (behindx c I). lia. Qed.
Lemma posP_ltx c : InvX c -> pos (P c) + 1 <= pos (C c) + len.
Proof. intros I. pose proof (behindx c I). pose proof (i_lci c I). lia. Qed.

Lemma pc_ok_off t : pc_ok t -> off t <= ca t.
Proof.
  intros [[_ ->]|[(_&X&Y)|(_&->&Y)]];
    [apply Nat.le_0_l | exact (Nat.le_trans _ _ _ (Nat.lt_le_incl _ _ X) Y) | exact Y].
Qed.
Lemma offP_le_ca c : InvX c -> off (P c) <= ca (P c).
Proof. intros I. exact (pc_ok_off _ (i_pcP c I)). Qed.
Lemma offC_le_ca c : InvX c -> off (C c) <= ca (C c).
Proof. intros I. destruct (i_pcC c I) as [H|(_&->&_)]; [exact (pc_ok_off _ H) | apply Nat.le_0_l]. Qed.

Lemma frontC_le_posP c : InvX c -> pos (C c) + off (C c) <= pos (P c).
Proof. intros I. pose proof (i_caC c I). pose proof (seenCx_le_posP c I). pose proof (offC_le_ca c I). lia. Qed.
Lemma frontP_lt c : InvX c -> pos (P c) + off (P c) + 1 <= pos (C c) + len.
Proof. intros I. pose proof (i_caP c I). pose proof (seenPx_le_posC c I). pose proof (offP_le_ca c I). lia. Qed.
Lemma caP_cap c : InvX c -> ca (P c) + 1 <= len.
Proof. intros I. pose proof (behindx c I). pose proof (i_lci c I). lia. Qed.
Lemma caC_cap c : InvX c -> ca (C c) + 1 <= len.
Proof. intros I. pose proof (behindx c I). pose proof (i_lci c I). lia. Qed.

Lemma growsx_msgs c c' xs ys :
  Mpi c' = Mpi c ++ xs -> Mci c' = Mci c ++ ys -> metas c' = metas c ->
  pos (P c) <= pos (P c') -> pos (C c) <= pos (C c') -> growsx c c'.
Proof.
  intros E1 E2 E3 HP HC. unfold growsx, mtx. rewrite E3.
  splits; auto; [exists xs | exists ys]; assumption.
Qed.

Lemma growsx_same c c' :
  Mpi c' = Mpi c -> Mci c' = Mci c -> metas c' = metas c ->
  pos (P c) <= pos (P c') -> pos (C c) <= pos (C c') -> growsx c c'.
Proof. intros E1 E2. apply (growsx_msgs c c' [] []); rewrite app_nil_r; assumption. Qed.

Lemma growsx_frame c c' : InvX c -> growsx c c' ->
  Forall (msg_okx c') (Mpi c) /\ Forall (msg_okx c') (Mci c) /\
  view_okx c' (V (P c)) /\ view_okx c' (V (C c)).
Proof.
  intros I G. splits.
  - exact (msgs_okx_grows c c' _ G (i_mpi c I)).
  - exact (msgs_okx_grows c c' _ G (i_mci c I)).
  - exact (view_okx_grows c c' _ G (i_vP c I)).
  - exact (view_okx_grows c c' _ G (i_vC c I)).
Qed.

Definition keeps (c c' : cfg_x) : Prop := InvX c' /\ growsx c c'.

Lemma keeps_refl c : InvX c -> keeps c c.
Proof. intros I. split; [exact I | apply growsx_same; auto]. Qed.


Lemma producer_local c t :
  let c' := mkCx (Mpi c) (Mci c) (metas c) t (C c) (race c) in
  InvX c ->
  pos t = pos (P c) -> off (P c) <= off t -> ix t = ix (P c) ->
  view_okx c (V t) -> kp (V (P c)) <= kp (V t) ->
  ca t + pos t + 1 <= seenPx c' + len -> pc_ok t ->
  keeps c c'.
Proof.
  intros c' I Hpos Hoff Hix Hv Hkp Hca Hpc.
  assert (G : growsx c c') by (apply growsx_same; simpl; auto; lia).
  split; [|exact G].
  destruct (growsx_frame c c' I G) as (Kmp & Kmc & _ & KvC).
  pose proof (view_okx_grows c c' _ G Hv) as KvP.
  pose proof (i_slot c I) as Hslot.
  destruct I. constructor; simpl; try assumption; try congruence.
  intros k Hk. destruct (Hslot k Hk) as (S1&S2&S3&S4&S5&S6). unfold mtx in *; simpl. splits; auto; lia.
Qed.

Lemma consumer_local c t :
  let c' := mkCx (Mpi c) (Mci c) (metas c) (P c) t (race c) in
  InvX c ->
  pos (C c) <= pos t -> pos (C c) + off (C c) <= pos t + off t -> ix t = pos t mod len ->
  (det t = false -> lastabs (Mci c) = pos t) ->
  view_okx c (V t) -> kc (V (C c)) <= kc (V t) ->
  ca t + pos t <= seenCx c' -> pc_okC c' ->
  keeps c c'.
Proof.
  intros c' I Hpos Hfront Hix Hatt Hv Hkc Hca Hpc.
  assert (G : growsx c c') by (apply growsx_same; simpl; auto).
  split; [|exact G].
  destruct (growsx_frame c c' I G) as (Kmp & Kmc & KvP & _).
  pose proof (view_okx_grows c c' _ G Hv) as KvC.
  pose proof (i_slot c I) as Hslot. pose proof (i_lci c I) as Hlci.
  destruct I. constructor; simpl; try assumption.
  - lia.
  - intros k Hk. destruct (Hslot k Hk) as (S1&S2&S3&S4&S5&S6). unfold mtx in *; simpl. splits; auto; lia.
Qed.

(* The view a load installs is the join with the thread's index moved up to the message read: still good,
   because the message's own watermark covers its position ([i_wpi] / [i_wci]). *)
Lemma loadC_view c i : InvX c -> vpi (V (C c)) <= i < length (Mpi c) ->
  let m := nth i (Mpi c) dmsg in
  let v0 := V (C c) in
  let v1 := vjoin (mkV i (vci v0) (kp v0) (kc v0) (wP v0) (wC v0)) (mview m) in
  view_okx c v1 /\ kc v0 <= kc v1 /\ mabs m <= mabs (nth (vpi v1) (Mpi c) dmsg).
Proof.
  intros I [Hi1 Hi2] m v0 v1.
  pose proof (Forall_nth_msg _ _ i (i_mpi c I) Hi2) as [_ Hm]. fold m in Hm.
  pose proof (i_wpi c I i Hi2) as Hw. fold m in Hw.
  pose proof (i_spi c I) as Hs.
  destruct (view_okx_join c v0 (mview m) (i_vC c I) Hm) as (J1&J2&J3&J4&J5&J6&J7&J8).
  destruct Hm as (Q1&_&_&_&Q5&_).
  assert (Hi : i <= Nat.max i (vpi (mview m)) < length (Mpi c)) by lia.
  splits; [unfold view_okx; splits; try assumption | simpl; lia | apply Hs; apply Hi].
  - apply Hi.
  - simpl in *. destruct (Nat.max_spec i (vpi (mview m))) as [[_ ->]|[_ ->]]; [|fold m]; lia.
Qed.

Lemma loadP_view c i : InvX c -> vci (V (P c)) <= i < length (Mci c) ->
  let m := nth i (Mci c) dmsg in
  let v0 := V (P c) in
  let v1 := vjoin (mkV (vpi v0) i (kp v0) (kc v0) (wP v0) (wC v0)) (mview m) in
  view_okx c v1 /\ kp v0 <= kp v1 /\ mabs m <= mabs (nth (vci v1) (Mci c) dmsg).
Proof.
  intros I [Hi1 Hi2] m v0 v1.
  pose proof (Forall_nth_msg _ _ i (i_mci c I) Hi2) as [_ Hm]. fold m in Hm.
  pose proof (i_wci c I i Hi2) as Hw. fold m in Hw.
  pose proof (i_sci c I) as Hs.
  destruct (view_okx_join c v0 (mview m) (i_vP c I) Hm) as (J1&J2&J3&J4&J5&J6&J7&J8).
  destruct Hm as (_&Q2&_&_&_&Q6&_).
  assert (Hi : i <= Nat.max i (vci (mview m)) < length (Mci c)) by lia.
  splits; [unfold view_okx; splits; try assumption | simpl; lia | apply Hs; apply Hi].
  - apply Hi.
  - simpl in *. destruct (Nat.max_spec i (vci (mview m))) as [[_ ->]|[_ ->]]; [|fold m]; lia.
Qed.


Lemma loadC_msg c i : InvX c -> vpi (V (C c)) <= i < length (Mpi c) ->
  let m := nth i (Mpi c) dmsg in
  mval m = mabs m mod len /\ seenCx c <= mabs m /\ mabs m <= pos (P c).
Proof.
  intros I [Hi1 Hi2] m. splits.
  - apply (Forall_nth_msg _ _ i (i_mpi c I) Hi2).
  - apply (i_spi c I); assumption.
  - rewrite <- (i_lpi c I). apply sorted_last; [exact (i_spi c I) | exact Hi2].
Qed.

Lemma loadP_msg c i : InvX c -> vci (V (P c)) <= i < length (Mci c) ->
  let m := nth i (Mci c) dmsg in
  mval m = mabs m mod len /\ seenPx c <= mabs m /\ mabs m <= pos (C c).
Proof.
  intros I [Hi1 Hi2] m. splits.
  - apply (Forall_nth_msg _ _ i (i_mci c I) Hi2).
  - apply (i_sci c I); assumption.
  - etransitivity; [|exact (i_lci c I)]. apply sorted_last; [exact (i_sci c I) | exact Hi2].
Qed.

Lemma pc0_off t : pc_ok t -> pc t = 0 -> off t = 0.
Proof. intros [[_ X]|[(X&_)|(X&_)]] E; congruence. Qed.
Lemma pc0_offC c : pc_okC c -> pc (C c) = 0 -> off (C c) = 0.
Proof. intros [H|(X&_)] E; [exact (pc0_off _ H E) | congruence]. Qed.

Hypothesis Hlen : 0 < len.

Lemma stepP_fast c j n0 : InvX c -> pc (P c) = 0 -> Nat.max 1 n0 <= ca (P c) -> keeps c (opP_a true len j n0 c).
Proof.
  intros I Hpc0 Hca. unfold opP_a. rewrite Hpc0. cbv zeta.
  rewrite (proj2 (Nat.leb_le _ _) Hca).
  apply producer_local; simpl; trivial.
  - rewrite (pc0_off _ (i_pcP c I) Hpc0). apply le_n.
  - exact (i_vP c I).
  - exact (i_caP c I).
  - right; left; simpl. splits; auto; lia.
Qed.

Lemma stepP_load c j n0 : InvX c -> pc (P c) = 0 -> ca (P c) < Nat.max 1 n0 -> keeps c (opP_a true len j n0 c).
Proof.
  intros I Hpc0 Hca. unfold opP_a. rewrite Hpc0. cbv zeta.
  rewrite (proj2 (Nat.leb_gt _ _) Hca).
  set (n := Nat.max 1 n0). assert (Hn : 1 <= n) by (unfold n; lia). clearbody n. clear Hca.
  destruct (i_vP c I) as (_&P2&_).
  pose proof (pick_bounds (vci (V (P c))) (length (Mci c)) j P2) as Hi.
  set (i := pick (vci (V (P c))) (length (Mci c)) j) in *. clearbody i.
  destruct (loadP_view c i I Hi) as (Hv1 & Hkp & Hmono).
  destruct (loadP_msg c i I Hi) as (Hmv & Hseen & HmC).
  set (m := nth i (Mci c) dmsg) in *. clearbody m.
  pose proof (i_caP c I) as HcaP.
  assert (Ha : pavail len (ix (P c)) (mval m) = len - 1 - (pos (P c) - mabs m)).
  { rewrite (i_ixP c I), Hmv. pose proof (posC_le_posPx c I). apply pavail_mod; lia. }
  apply producer_local; simpl; trivial.
  - rewrite (pc0_off _ (i_pcP c I) Hpc0). apply le_n.
  - unfold seenPx; simpl in *. rewrite Ha. lia.
  - unfold pc_ok; simpl.
    destruct (n <=? pavail len (ix (P c)) (mval m)) eqn:E;
      [apply Nat.leb_le in E; right; left; splits; auto; lia | left; auto].
Qed.

Lemma stepP_write c j n0 : InvX c -> pc (P c) = 2 -> keeps c (opP_a true len j n0 c).
Proof.
  intros I Hpc2.
  destruct (i_pcP c I) as [[X _]|[(_&Hoff&Hcnt)|(X&_)]]; try congruence.
  unfold opP_a. rewrite Hpc2. cbv zeta.
  pose proof (i_slot c I) as Hslot.
  assert (Hk0 : wadd len (ix (P c)) (off (P c)) = (pos (P c) + off (P c)) mod len)
    by (rewrite (i_ixP c I); pose proof (caP_cap c I); apply wadd_mod; lia).
  set (k0 := wadd len (ix (P c)) (off (P c))) in *.
  set (q := pos (P c) + off (P c)) in *.
  assert (Hk : k0 < len) by (rewrite Hk0; apply Nat.mod_upper_bound; lia).
  destruct (Hslot _ Hk) as (S1&S2&S3&S4&S5&S6).
  fold (mtx c k0).
  (* the consumer's last read of this slot is one lap (or more) below, and covered by the producer's view *)
  assert (Hr : rpos (mtx c k0) + len <= q).
  { pose proof (frontC_le_posP c I).
    apply (Ring.congr_le len); [exact Hlen | rewrite (Ring.mod_add_len _ _ Hlen), S2, Hk0; reflexivity | lia]. }
  assert (Hcov : rclk (mtx c k0) <= kc (V (P c))).
  { destruct (i_vP c I) as (_&_&_&_&_&P6&_&P8). pose proof (i_caP c I) as HcaP.
    apply P8; auto. unfold seenPx in HcaP. lia. }
  rewrite (proj2 (negb_false_iff _) (proj2 (Nat.leb_le _ _) Hcov)), orb_false_r.
  set (c' := mkCx _ _ _ _ _ _).
  assert (Hmt : forall k, k < len -> k <> k0 -> mtx c' k = mtx c k)
    by (intros; unfold mtx, c'; simpl; apply nth_upd_neq; auto).
  assert (Hmt0 : mtx c' k0 = mkMeta q (kp (V (P c))) (rpos (mtx c k0)) (rclk (mtx c k0)))
    by (unfold mtx, c'; simpl; apply nth_upd_eq; rewrite (i_metas c I); exact Hk).
  assert (G : growsx c c').
  { unfold growsx; splits; simpl; try (exists []; rewrite app_nil_r; reflexivity); try lia.
    intros k Hk'. destruct (Nat.eq_dec k k0) as [->|Hne].
    - right; left. rewrite Hmt0; simpl; splits; auto; lia.
    - left; auto. }
  split; [|exact G]. destruct (growsx_frame c c' I G) as (Kmp & Kmc & KvP & KvC).
  constructor; simpl; try (destruct I; assumption).
  - rewrite upd_length. exact (i_metas c I).
  - unfold pc_ok; simpl.
    destruct (cnt (P c) <=? off (P c) + 1) eqn:E; [apply Nat.leb_le in E | apply Nat.leb_gt in E].
    + right; right; splits; auto; lia.
    + right; left; splits; auto; lia.
  - intros k Hk'. destruct (Nat.eq_dec k k0) as [->|Hne].
    + rewrite Hmt0; simpl. splits; auto; lia.
    + rewrite (Hmt k Hk' Hne). destruct (Hslot k Hk') as (T1&T2&T3&T4&T5&T6).
      splits; auto; lia.
Qed.

Lemma stepP_store c j n0 : InvX c -> pc (P c) = 3 -> keeps c (opP_a true len j n0 c).
Proof.
  intros I Hpc3.
  destruct (i_pcP c I) as [[X _]|[(X&_)|(_&Hoff&Hcnt)]]; try congruence.
  unfold opP_a. rewrite Hpc3. cbv zeta.
  pose proof (i_slot c I) as Hslot.
  destruct (i_vP c I) as (P1&P2&P3&P4&P5&P6&P7&P8).
  assert (Hix' : wadd len (ix (P c)) (cnt (P c)) = (pos (P c) + cnt (P c)) mod len)
    by (rewrite (i_ixP c I); pose proof (caP_cap c I); apply wadd_mod; lia).
  set (p' := pos (P c) + cnt (P c)) in *.
  set (v1 := mkV (length (Mpi c)) _ _ _ p' _).
  set (m := mkM _ _ v1).
  set (c' := mkCx _ _ _ _ _ _).
  assert (G : growsx c c') by (apply (growsx_msgs c c' [m] []); simpl; auto using app_nil_r; lia).
  split; [|exact G].
  destruct (growsx_frame c c' I G) as (Kmp & Kmc & _ & KvC).
  assert (Hnth : forall i, i < length (Mpi c) -> nth i (Mpi c ++ [m]) dmsg = nth i (Mpi c) dmsg)
    by (intros; apply nth_app_l; auto).
  assert (Hv1 : view_okx c' v1).
  { unfold view_okx, v1, c'; simpl. rewrite app_length; simpl. splits; try lia.
    - rewrite nth_app_last; simpl; lia.
    - intros k Hk Hw. destruct (Hslot k Hk) as (_&_&_&_&S5&_). exact S5.
    - intros k Hk Hw. apply P8; auto. }
  constructor; simpl; try (destruct I; assumption).
  - rewrite app_length; simpl; lia.
  - apply sorted_app; [exact (i_spi c I) | rewrite (i_lpi c I); simpl; lia].
  - rewrite lastabs_app; reflexivity.
  - apply Forall_app1; [exact Kmp | split; simpl; auto].
  - intros i Hi. rewrite app_length in Hi; simpl in Hi.
    destruct (Nat.eq_dec i (length (Mpi c))) as [->|Hne].
    + rewrite nth_app_last; simpl; lia.
    + rewrite Hnth by lia. apply (i_wpi c I); lia.
  - destruct Hv1 as (A1&A2&A3&A4&A5&A6&A7&A8). unfold view_okx; simpl. splits; auto.
  - pose proof (i_caP c I). unfold seenPx in *; simpl. lia.
  - destruct (i_vC c I) as (C1&_). unfold seenCx; simpl. rewrite Hnth by auto. exact (i_caC c I).
  - left; simpl; auto.
  - (* the consumer's pc: it looks at the same message of the producer's index as before *)
    destruct (i_vC c I) as (C1&_).
    destruct (i_pcC c I) as [X|(X1&X2&X3&X4&X5)]; [left; exact X | right].
    unfold seenCx in *; simpl. rewrite Hnth by auto. splits; auto.
  - intros k Hk. destruct (Hslot k Hk) as (S1&S2&S3&S4&S5&S6).
    unfold mtx in *; simpl. splits; auto; lia.
Qed.

Lemma stepC_fast c j n0 : InvX c -> pc (C c) = 0 -> Nat.max 1 n0 <= ca (C c) -> keeps c (opC_a true len j n0 c).
Proof.
  intros I Hpc0 Hca. unfold opC_a. rewrite Hpc0. cbv zeta.
  rewrite (proj2 (Nat.leb_le _ _) Hca).
  apply consumer_local; simpl; trivial.
  - rewrite (pc0_offC c (i_pcC c I) Hpc0). apply le_n.
  - exact (i_ixC c I).
  - exact (i_att c I).
  - exact (i_vC c I).
  - exact (i_caC c I).
  - left; right; left; simpl. splits; auto; lia.
Qed.

Lemma stepC_load c j n0 : InvX c -> pc (C c) = 0 -> ca (C c) < Nat.max 1 n0 -> keeps c (opC_a true len j n0 c).
Proof.
  intros I Hpc0 Hca. unfold opC_a. rewrite Hpc0. cbv zeta.
  rewrite (proj2 (Nat.leb_gt _ _) Hca).
  set (n := Nat.max 1 n0). assert (Hn : 1 <= n) by (unfold n; lia). clearbody n. clear Hca.
  destruct (i_vC c I) as (P1&_).
  pose proof (pick_bounds (vpi (V (C c))) (length (Mpi c)) j P1) as Hi.
  set (i := pick (vpi (V (C c))) (length (Mpi c)) j) in *. clearbody i.
  destruct (loadC_view c i I Hi) as (Hv1 & Hkc & Hmono).
  destruct (loadC_msg c i I Hi) as (Hmv & Hseen & HmP).
  set (m := nth i (Mpi c) dmsg) in *. clearbody m.
  pose proof (i_caC c I) as HcaC.
  assert (Ha : dist len (ix (C c)) (mval m) = mabs m - pos (C c)).
  { rewrite (i_ixC c I), Hmv. pose proof (posP_ltx c I). apply dist_mod; lia. }
  apply consumer_local; simpl; trivial.
  - rewrite (pc0_offC c (i_pcC c I) Hpc0). apply le_n.
  - exact (i_ixC c I).
  - exact (i_att c I).
  - unfold seenCx; simpl in *. rewrite Ha. lia.
  - left; unfold pc_ok; simpl.
    destruct (n <=? dist len (ix (C c)) (mval m)) eqn:E;
      [apply Nat.leb_le in E; right; left; splits; auto; lia | left; auto].
Qed.

Lemma stepC_read c j n0 : InvX c -> pc (C c) = 2 -> keeps c (opC_a true len j n0 c).
Proof.
  intros I Hpc2.
  destruct (i_pcC c I) as [[[X _]|[(_&Hoff&Hcnt)|(X&_)]]|(X&_)]; try congruence.
  unfold opC_a. rewrite Hpc2. cbv zeta.
  pose proof (i_slot c I) as Hslot.
  assert (Hk0 : wadd len (ix (C c)) (off (C c)) = (pos (C c) + off (C c)) mod len)
    by (rewrite (i_ixC c I); pose proof (caC_cap c I); apply wadd_mod; lia).
  set (k0 := wadd len (ix (C c)) (off (C c))) in *.
  set (q := pos (C c) + off (C c)) in *.
  assert (Hk : k0 < len) by (rewrite Hk0; apply Nat.mod_upper_bound; lia).
  destruct (Hslot _ Hk) as (S1&S2&S3&S4&S5&S6).
  fold (mtx c k0).
  (* the producer's last write of this slot is not above the position being read ... *)
  assert (Hw : wpos (mtx c k0) <= q).
  { pose proof (frontP_lt c I).
    apply (Ring.congr_le len); [exact Hlen | rewrite S1, Hk0; reflexivity | lia]. }
  (* ... hence below the watermark the consumer acquired *)
  assert (Hcov : wclk (mtx c k0) <= kp (V (C c))).
  { destruct (i_vC c I) as (_&_&_&_&P5&_&P7&_). pose proof (i_caC c I) as HcaC.
    apply P7; auto. unfold seenCx in HcaC. lia. }
  rewrite (proj2 (negb_false_iff _) (proj2 (Nat.leb_le _ _) Hcov)), orb_false_r.
  set (c' := mkCx _ _ _ _ _ _).
  assert (Hmt : forall k, k < len -> k <> k0 -> mtx c' k = mtx c k)
    by (intros; unfold mtx, c'; simpl; apply nth_upd_neq; auto).
  assert (Hmt0 : mtx c' k0 = mkMeta (wpos (mtx c k0)) (wclk (mtx c k0)) q (kc (V (C c))))
    by (unfold mtx, c'; simpl; apply nth_upd_eq; rewrite (i_metas c I); exact Hk).
  assert (G : growsx c c').
  { unfold growsx; splits; simpl; try (exists []; rewrite app_nil_r; reflexivity); try lia.
    intros k Hk'. destruct (Nat.eq_dec k k0) as [->|Hne].
    - right; right. rewrite Hmt0; simpl; splits; auto; lia.
    - left; auto. }
  split; [|exact G]. destruct (growsx_frame c c' I G) as (Kmp & Kmc & KvP & KvC).
  constructor; simpl; try (destruct I; assumption).
  - rewrite upd_length. exact (i_metas c I).
  - left; unfold pc_ok; simpl.
    destruct (cnt (C c) <=? off (C c) + 1) eqn:E; [apply Nat.leb_le in E | apply Nat.leb_gt in E].
    + right; right; splits; auto; lia.
    + right; left; splits; auto; lia.
  - intros k Hk'. destruct (Nat.eq_dec k k0) as [->|Hne].
    + rewrite Hmt0; simpl. splits; auto; lia.
    + rewrite (Hmt k Hk' Hne). destruct (Hslot k Hk') as (T1&T2&T3&T4&T5&T6).
      splits; auto; lia.
Qed.

(* Every consumer operation that ends with a release store: pc 3 and pc 5 attached, Sync, Attach. *)
Lemma publishC_inv c ix' p' ca' d :
  InvX c -> pos (C c) + off (C c) <= p' -> p' + ca' <= seenCx c -> ix' = p' mod len ->
  keeps c (publishC c ix' p' ca' d).
Proof.
  intros I Hp' Hca' Hix'.
  unfold publishC. cbv zeta.
  pose proof (i_slot c I) as Hslot. pose proof (i_lci c I) as Hlci.
  destruct (i_vC c I) as (P1&P2&P3&P4&P5&P6&P7&P8).
  set (v1 := mkV _ (length (Mci c)) _ _ _ p').
  set (m := mkM _ _ v1).
  set (c' := mkCx _ _ _ _ _ _).
  assert (G : growsx c c') by (apply (growsx_msgs c c' [] [m]); simpl; auto using app_nil_r; lia).
  split; [|exact G].
  destruct (growsx_frame c c' I G) as (Kmp & Kmc & KvP & _).
  assert (Hnth : forall i, i < length (Mci c) -> nth i (Mci c ++ [m]) dmsg = nth i (Mci c) dmsg)
    by (intros; apply nth_app_l; auto).
  assert (Hv1 : view_okx c' v1).
  { pose proof (seenCx_le_posP c I). unfold seenCx in *.
    unfold view_okx, v1, c'; simpl. rewrite app_length; simpl. splits; try lia.
    - rewrite nth_app_last; simpl; lia.
    - intros k Hk Hw. apply P7; auto.
    - intros k Hk Hw. destruct (Hslot k Hk) as (_&_&_&_&_&S6). exact S6. }
  constructor; simpl; try (destruct I; assumption).
  - rewrite app_length; simpl; lia.
  - apply sorted_app; [exact (i_sci c I) | simpl; lia].
  - rewrite lastabs_app; simpl; lia.
  - intros _. rewrite lastabs_app; reflexivity.
  - apply Forall_app1; [exact Kmc | split; simpl; auto].
  - intros i Hi. rewrite app_length in Hi; simpl in Hi.
    destruct (Nat.eq_dec i (length (Mci c))) as [->|Hne].
    + rewrite nth_app_last; simpl; lia.
    + rewrite Hnth by lia. apply (i_wci c I); lia.
  - destruct Hv1 as (A1&A2&A3&A4&A5&A6&A7&A8). unfold view_okx; simpl. splits; auto.
  - destruct (i_vP c I) as (_&C2&_). unfold seenPx; simpl. rewrite Hnth by auto. exact (i_caP c I).
  - unfold seenCx in *; simpl. lia.
  - left; left; simpl; auto.
  - intros k Hk. destruct (Hslot k Hk) as (S1&S2&S3&S4&S5&S6).
    unfold mtx in *; simpl. splits; auto; lia.
Qed.

Lemma localC_inv c ix' p' ca' :
  InvX c -> det (C c) = true -> pos (C c) + off (C c) <= p' -> p' + ca' <= seenCx c -> ix' = p' mod len ->
  keeps c (localC c ix' p' ca').
Proof.
  intros I Hdet Hp' Hca' Hix'. unfold localC. cbv zeta.
  apply consumer_local; simpl; trivial; try lia.
  - rewrite Hdet; discriminate.
  - exact (i_vC c I).
  - unfold seenCx in *; simpl. lia.
  - left; left; simpl; auto.
Qed.

Lemma finishC_inv c ix' p' ca' :
  InvX c -> pos (C c) + off (C c) <= p' -> p' + ca' <= seenCx c -> ix' = p' mod len ->
  keeps c (finishC c ix' p' ca').
Proof.
  intros I Hp' Hca' Hix'. unfold finishC.
  destruct (det (C c)) eqn:Hdet.
  - apply localC_inv; auto.
  - apply publishC_inv; auto.
Qed.

Lemma stepC_store c j n0 : InvX c -> pc (C c) = 3 -> keeps c (opC_a true len j n0 c).
Proof.
  intros I Hpc3.
  destruct (i_pcC c I) as [[[X _]|[(X&_)|(_&Hoff&Hcnt)]]|(X&_)]; try congruence.
  unfold opC_a. rewrite Hpc3. cbv zeta.
  pose proof (i_caC c I). pose proof (caC_cap c I).
  apply finishC_inv; auto; try lia.
  rewrite (i_ixC c I); apply wadd_mod; lia.
Qed.

Lemma stepC_rstore c j n0 : InvX c -> pc (C c) = 5 -> keeps c (opC_a true len j n0 c).
Proof.
  intros I Hpc5.
  destruct (i_pcC c I) as [[[X _]|[(X&_)|(X&_)]]|(_&Hoff&Hge&Hle&Hnix)]; try congruence.
  unfold opC_a. rewrite Hpc5. cbv zeta.
  apply finishC_inv; auto; lia.
Qed.

Lemma resetC_inv c j : InvX c -> pc (C c) = 0 -> keeps c (resetC_a true j c).
Proof.
  intros I Hpc0. unfold resetC_a. cbv zeta.
  destruct (i_vC c I) as (P1&_).
  pose proof (pick_bounds (vpi (V (C c))) (length (Mpi c)) j P1) as Hi.
  set (i := pick (vpi (V (C c))) (length (Mpi c)) j) in *. clearbody i.
  destruct (loadC_view c i I Hi) as (Hv1 & Hkc & Hmono).
  destruct (loadC_msg c i I Hi) as (Hmv & Hseen & HmP).
  set (m := nth i (Mpi c) dmsg) in *. clearbody m.
  pose proof (i_caC c I) as HcaC.
  apply consumer_local; simpl; trivial.
  - exact (i_ixC c I).
  - exact (i_att c I).
  - unfold seenCx; simpl in *. lia.
  - right. unfold seenCx; simpl in *. splits; auto; try lia. exact (pc0_offC c (i_pcC c I) Hpc0).
Qed.

Lemma detachC_inv c : InvX c -> pc (C c) = 0 -> keeps c (detachC c).
Proof.
  intros I Hpc0. unfold detachC. cbv zeta.
  apply consumer_local; simpl; trivial.
  - exact (i_ixC c I).
  - discriminate.
  - exact (i_vC c I).
  - exact (i_caC c I).
  - destruct (i_pcC c I) as [X|(X&_)]; [left; exact X | congruence].
Qed.

Lemma syncC_inv c d : InvX c -> pc (C c) = 0 -> keeps c (publishC c (ix (C c)) (pos (C c)) (ca (C c)) d).
Proof.
  intros I Hpc0. pose proof (i_caC c I).
  apply publishC_inv; auto; [rewrite (pc0_offC c (i_pcC c I) Hpc0) | | exact (i_ixC c I)]; lia.
Qed.

Lemma opP_inv c j n0 : InvX c -> keeps c (opP_a true len j n0 c).
Proof.
  intros I. destruct (i_pcP c I) as [[H0 _]|[[H2 _]|[H3 _]]].
  - destruct (Nat.max 1 n0 <=? ca (P c)) eqn:E; [apply Nat.leb_le in E | apply Nat.leb_gt in E].
    + apply stepP_fast; auto.
    + apply stepP_load; auto.
  - apply stepP_write; auto.
  - apply stepP_store; auto.
Qed.

Lemma opC_inv c j n0 : InvX c -> keeps c (opC_a true len j n0 c).
Proof.
  intros I. destruct (i_pcC c I) as [[[H0 _]|[[H2 _]|[H3 _]]]|[H5 _]].
  - destruct (Nat.max 1 n0 <=? ca (C c)) eqn:E; [apply Nat.leb_le in E | apply Nat.leb_gt in E].
    + apply stepC_fast; auto.
    + apply stepC_load; auto.
  - apply stepC_read; auto.
  - apply stepC_store; auto.
  - apply stepC_rstore; auto.
Qed.

Lemma step_keeps c s : InvX c -> keeps c (step_x len c s).
Proof.
  intros I. pose proof (keeps_refl c I) as R.
  destruct s as [[|] k]; unfold step_x, step_a; simpl fst; simpl snd; cbv iota.
  - destruct k as [j n0|j| | |]; simpl; auto. apply opP_inv; auto.
  - (* consumer: Reset / Detach / Attach / Sync are accepted at pc 0 only *)
    unfold stepC_a. destruct k as [j n0|j| | |].
    + apply opC_inv; auto.
    + destruct (pc (C c)) as [|q] eqn:E; auto. apply resetC_inv; auto.
    + destruct (pc (C c)) as [|q] eqn:E; auto. apply detachC_inv; auto.
    + destruct (pc (C c)) as [|q] eqn:E; auto. apply syncC_inv; auto.
    + destruct (pc (C c)) as [|q] eqn:E; auto. apply syncC_inv; auto.
Qed.

Lemma step_invx c s : InvX c -> InvX (step_x len c s).
Proof. intros I. exact (proj1 (step_keeps c s I)). Qed.

Lemma init_invx : InvX (init_x len).
Proof.
  assert (Hv : forall kp0 kc0, view_okx (init_x len) (mkV 0 0 kp0 kc0 len len)).
  { intros. unfold view_okx, init_x, mtx; simpl. splits; try lia.
    - intros k Hk Hw. rewrite nth_init_meta by auto. simpl. lia.
    - intros k Hk Hw. rewrite nth_init_meta by auto. simpl. lia. }
  constructor; simpl; auto.
  - rewrite map_length, seq_length; reflexivity.
  - intros i j Hij Hj. simpl in Hj. assert (i = 0) by lia. assert (j = 0) by lia. subst. lia.
  - intros i j Hij Hj. simpl in Hj. assert (i = 0) by lia. assert (j = 0) by lia. subst. lia.
  - constructor; [|constructor]. split; simpl; [symmetry; apply Nat.mod_same; lia | apply Hv].
  - constructor; [|constructor]. split; simpl; [symmetry; apply Nat.mod_same; lia | apply Hv].
  - intros i Hi. assert (i = 0) by lia. subst; simpl; lia.
  - intros i Hi. assert (i = 0) by lia. subst; simpl; lia.
  - apply Hv.
  - apply Hv.
  - symmetry; apply Nat.mod_same; lia.
  - symmetry; apply Nat.mod_same; lia.
  - unfold seenPx; simpl. lia.
  - left; simpl; auto.
  - left; left; simpl; auto.
  - intros k Hk. unfold mtx; simpl. rewrite nth_init_meta by auto. simpl.
    splits; try lia; apply Nat.mod_small; auto.
Qed.

Theorem exec_invx script : InvX (exec_x len (init_x len) script).
Proof.
  exact (fold_left_inv _ InvX step_invx script _ init_invx).
Qed.
End InvX.

(* Every release/acquire-consistent execution - any interleaving, any stale read, any
   sequence of window sizes, resets, detach / sync / attach commands - is race free. *)
Theorem spsc_x_race_free : forall len script, 0 < len -> race (exec_x len (init_x len) script) = false.
Proof. intros len script Hl. apply (i_race len _ (exec_invx len Hl script)). Qed.

(* The position the consumer has published never exceeds its local position; attached, they are equal
   (at every pc: the local index is set by the step that publishes it). *)
Theorem published_le_local : forall len script, 0 < len ->
  let c := exec_x len (init_x len) script in
  publishedC c <= pos (C c) /\ (det (C c) = false -> publishedC c = pos (C c)).
Proof.
  intros len script Hl c. pose proof (exec_invx len Hl script) as I. fold c in I.
  unfold publishedC. rewrite <- lastabs_last. split; [apply (i_lci len c I) | apply (i_att len c I)].
Qed.

(* The consumer's local position is monotone along every execution: a reset never goes backwards. *)
Theorem consumer_never_goes_back : forall len s1 s2, 0 < len ->
  pos (C (exec_x len (init_x len) s1)) <= pos (C (exec_x len (init_x len) (s1 ++ s2))).
Proof.
  intros len s1 s2 Hl. unfold exec_x, exec_a. rewrite fold_left_app.
  change (step_a true true len) with (step_x len).
  pose proof (exec_invx len Hl s1) as I. unfold exec_x, exec_a in I.
  change (step_a true true len) with (step_x len) in I.
  revert I. generalize (fold_left (step_x len) s1 (init_x len)).
  induction s2 as [|s s2 IH]; intros c I; simpl; auto.
  destruct (step_keeps len Hl c s I) as (I' & _ & _ & _ & Hpos & _).
  etransitivity; [exact Hpos | exact (IH _ I')].
Qed.

(* The order of the two stages and the capacity bound hold at every moment of every execution, also in the
   middle of an operation, where a thread's frontier is its position plus the slots of its window already accessed. *)
Theorem order_always_x : forall len script, 0 < len ->
  let c := exec_x len (init_x len) script in
  pos (C c) + off (C c) <= pos (P c) /\ pos (P c) + off (P c) + 1 <= pos (C c) + len.
Proof.
  intros len script Hl c. pose proof (exec_invx len Hl script) as I. fold c in I.
  split; [exact (frontC_le_posP len c I) | exact (frontP_lt len c I)].
Qed.

Print Assumptions spsc_x_race_free.
Print Assumptions published_le_local.
Print Assumptions consumer_never_goes_back.
Print Assumptions order_always_x.
