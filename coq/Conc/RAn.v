(** * The two-stage release/acquire view machine with MULTI-SLOT operations
      (the crate's slice operations: [push_slice], [copy_slice], ...): RAx.v without the consumer's commands
      ([embed_n] in RAnproof.v), RA.v with windows of any size.

    As in RA.v: two threads (P pushes, C pops), index locations are append-only message lists
    (value, absolute position, view); a load may read any message at or after the loading thread's view
    (stale reads) and joins the view of the message read; a store appends a message carrying the storing
    thread's view; every slot access goes through the vector-clock race detector ([metas], [race]).

    New here: one operation handles a WINDOW of [cnt >= 1] consecutive ring slots.
    A script entry is [(thread, read choice j, requested count n)].  The count is consulted only at pc 0,
    when an operation starts, and is remembered in the thread record (fields [cnt], [off]).

      pc 0  check : let n := max 1 (requested count)     -- a request of 0 items is treated as a request of 1
                    if n <= ca then grant (pc := 2, cnt := n, off := 0)
                    else load the other index (any admissible message, acquire),
                         ca := fresh availability ([pavail] for P, [dist] for C);
                         if n <= ca then grant else stay at pc 0
                    (a request n > len - 1 is never granted: ca <= len - 1 always; the thread stays at pc 0
                     and its next step starts a new operation with the count of that script entry)
      pc 2  access ONE slot of the window: slot [wadd len ix off] at absolute position [pos + off]
                    (write for P, read for C; exactly the race checks of RA.v), off := off + 1,
                    and when off = cnt go to pc 3
      pc 3  publish: ix := wadd len ix cnt, pos := pos + cnt, ca := ca - cnt,
                    append the message with the thread's view (watermark pos + cnt), pc := 0.

    The booleans [acqP] / [acqC] say whether the producer's / the consumer's index load is (at least) Acquire,
    i.e. joins the view of the message read.  [stepP_n], [stepC_n], [exec_n] are the machine with both set;
    the examples at the end show that dropping either join makes the detector fire. *)
From Coq Require Import List Arith.
Import ListNotations.
Require Import MRB.Conc.RA.

(* Same field names as RA.v's records (they shadow them). *)
Record thr_n := mkTn { ix : nat; ca : nat; V : view; pc : nat; pos : nat; cnt : nat; off : nat }.
Record cfg_n := mkCn { Mpi : list msg; Mci : list msg; metas : list meta; P : thr_n; C : thr_n; race : bool }.

Definition vzero := mkV 0 0 0 0 0 0.

Section M.
Variables (acqP acqC : bool).
Variable len : nat.

Definition stepP_a (j n0 : nat) (c : cfg_n) : cfg_n :=
  let t := P c in
  match pc t with
  | 0 =>
    let n := Nat.max 1 n0 in
    if n <=? ca t then
      mkCn (Mpi c) (Mci c) (metas c) (mkTn (ix t) (ca t) (V t) 2 (pos t) n 0) (C c) (race c)
    else
      let i := pick (vci (V t)) (length (Mci c)) j in
      let m := nth i (Mci c) dmsg in
      let v0 := V t in
      let v1 := vjoin (mkV (vpi v0) i (kp v0) (kc v0) (wP v0) (wC v0)) (if acqP then mview m else vzero) in
      let a := pavail len (ix t) (mval m) in
      mkCn (Mpi c) (Mci c) (metas c)
           (mkTn (ix t) a v1 (if n <=? a then 2 else 0) (pos t) n 0) (C c) (race c)
  | 2 =>
    let k := wadd len (ix t) (off t) in
    let mt := nth k (metas c) dmeta in
    let bad := negb (rclk mt <=? kc (V t)) in
    mkCn (Mpi c) (Mci c) (upd k (mkMeta (pos t + off t) (kp (V t)) (rpos mt) (rclk mt)) (metas c))
         (mkTn (ix t) (ca t) (V t) (if cnt t <=? off t + 1 then 3 else 2) (pos t) (cnt t) (off t + 1))
         (C c) (race c || bad)
  | 3 =>
    let ix' := wadd len (ix t) (cnt t) in
    let p' := pos t + cnt t in
    let v0 := V t in
    let v1 := mkV (length (Mpi c)) (vci v0) (kp v0) (kc v0) p' (wC v0) in
    let m := mkM ix' p' v1 in
    mkCn (Mpi c ++ [m]) (Mci c) (metas c)
         (mkTn ix' (ca t - cnt t) (mkV (vpi v1) (vci v1) (S (kp v1)) (kc v1) (wP v1) (wC v1)) 0 p' (cnt t) 0)
         (C c) (race c)
  | _ => c
  end.

Definition stepC_a (j n0 : nat) (c : cfg_n) : cfg_n :=
  let t := C c in
  match pc t with
  | 0 =>
    let n := Nat.max 1 n0 in
    if n <=? ca t then
      mkCn (Mpi c) (Mci c) (metas c) (P c) (mkTn (ix t) (ca t) (V t) 2 (pos t) n 0) (race c)
    else
      let i := pick (vpi (V t)) (length (Mpi c)) j in
      let m := nth i (Mpi c) dmsg in
      let v0 := V t in
      let v1 := vjoin (mkV i (vci v0) (kp v0) (kc v0) (wP v0) (wC v0)) (if acqC then mview m else vzero) in
      let a := dist len (ix t) (mval m) in
      mkCn (Mpi c) (Mci c) (metas c) (P c)
           (mkTn (ix t) a v1 (if n <=? a then 2 else 0) (pos t) n 0) (race c)
  | 2 =>
    let k := wadd len (ix t) (off t) in
    let mt := nth k (metas c) dmeta in
    let bad := negb (wclk mt <=? kp (V t)) in
    mkCn (Mpi c) (Mci c) (upd k (mkMeta (wpos mt) (wclk mt) (pos t + off t) (kc (V t))) (metas c))
         (P c)
         (mkTn (ix t) (ca t) (V t) (if cnt t <=? off t + 1 then 3 else 2) (pos t) (cnt t) (off t + 1))
         (race c || bad)
  | 3 =>
    let ix' := wadd len (ix t) (cnt t) in
    let p' := pos t + cnt t in
    let v0 := V t in
    let v1 := mkV (vpi v0) (length (Mci c)) (kp v0) (kc v0) (wP v0) p' in
    let m := mkM ix' p' v1 in
    mkCn (Mpi c) (Mci c ++ [m]) (metas c) (P c)
         (mkTn ix' (ca t - cnt t) (mkV (vpi v1) (vci v1) (kp v1) (S (kc v1)) (wP v1) (wC v1)) 0 p' (cnt t) 0)
         (race c)
  | _ => c
  end.

(* script entry: (thread (true = P), read choice, requested count) *)
Definition step_a (c : cfg_n) (s : bool * nat * nat) : cfg_n :=
  let '(b, j, n) := s in if b then stepP_a j n c else stepC_a j n c.
Definition exec_a (c : cfg_n) (script : list (bool * nat * nat)) : cfg_n := fold_left step_a script c.

(* As in RA.v both threads start at absolute position [len] (so that "one lap earlier" never underflows);
   slot k was last written / read at position k, with clock 0. *)
Definition init_n : cfg_n :=
  mkCn [mkM 0 len (vbot len)] [mkM 0 len (vbot len)]
       (map (fun k => mkMeta k 0 k 0) (seq 0 len))
       (mkTn 0 0 (v0P len) 0 len 0 0) (mkTn 0 0 (v0C len) 0 len 0 0) false.

End M.

(* The release/acquire machine: both index loads acquire. *)
Definition stepP_n := stepP_a true.
Definition stepC_n := stepC_a true.
Definition step_n := step_a true true.
Definition exec_n := exec_a true true.

(* Examples, len = 4 (capacity 3).  [sP n] / [sC n] : one step of the producer / consumer, always reading the
   latest message of the other index (read choice 99), requested count n (only looked at when an operation
   starts). *)
Definition sP (n : nat) : bool * nat * nat := (true, 99, n).
Definition sC (n : nat) : bool * nat * nat := (false, 99, n).

(* P pushes a window of 3 (check, 3 writes, publish); C pops 2 (check, 2 reads, publish);
   P asks for 2 more while C is popping 1: P's window wraps around the end of the ring (slots 3 and 0). *)
Definition demo : list (bool * nat * nat) :=
  [ sP 3; sP 3; sP 3; sP 3; sP 3;            (* P: load+grant 3, write 0,1,2, publish -> ix 3      *)
    sC 2; sC 2; sC 2; sC 2;                  (* C: load+grant 2, read 0,1, publish    -> ix 2      *)
    sP 2; sC 1; sP 2; sC 1; sP 2; sC 1; sP 2 (* P: load+grant 2, write 3,0, publish   -> ix 1 ;
                                                C: grant 1 from the remembered ca, read 2, publish -> ix 3 *)
  ].

Definition summary (c : cfg_n) :=
  (race c, (ix (P c), pos (P c), ca (P c), pc (P c)), (ix (C c), pos (C c), ca (C c), pc (C c))).

Example demo_race_free :
  summary (exec_n 4 (init_n 4) demo) = (false, (1, 9, 0, 0), (3, 7, 0, 0)).
Proof. vm_compute. reflexivity. Qed.

(* Same script, but the consumer's load of the producer index does not join the message view
   (a Relaxed load): the consumer's first read of slot 0 is not ordered after the producer's write. *)
Example demo_consumer_relaxed_races :
  race (exec_a true false 4 (init_n 4) demo) = true.
Proof. vm_compute. reflexivity. Qed.

(* Same script, but the producer's load of the consumer index does not join: the producer's second window
   overwrites slot 0 without being ordered after the consumer's read of it. *)
Example demo_producer_relaxed_races :
  race (exec_a false true 4 (init_n 4) demo) = true.
Proof. vm_compute. reflexivity. Qed.

(* A stale read simply does not grant: C reads the initial message (choice 0) and stays at pc 0. *)
Example demo_stale_read :
  summary (exec_n 4 (init_n 4) [sP 3; sP 3; sP 3; sP 3; sP 3; (false, 0, 2)])
  = (false, (3, 7, 0, 0), (0, 4, 0, 0)).
Proof. vm_compute. reflexivity. Qed.

(* A request larger than the capacity is never granted. *)
Example demo_too_large :
  summary (exec_n 4 (init_n 4) [sP 4; sP 4; sP 4]) = (false, (0, 4, 3, 0), (0, 4, 0, 0)).
Proof. vm_compute. reflexivity. Qed.
