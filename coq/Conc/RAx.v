(** * The two-stage release/acquire view machine with multi-slot operations,
      [ConsIter::reset_index] (the consumer jumps to the producer's published index) and
      DETACHED operation of the consumer ([Detached]: local advance without publishing, [sync_index], [attach]).

    Two threads (P pushes, C pops), append-only message lists for the two index locations (value, absolute
    position, view), stale reads (a load may read any message at or after the loading thread's view and - when
    it is an acquire load - joins the view of the message read), release stores (the appended message carries
    the storing thread's view), multi-slot windows ([cnt], [off]), and the vector-clock race detector on every
    slot access ([metas], [race]); views, messages, slot records and the ring arithmetic are RA.v's.
    RAn.v is this machine restricted to [Op] commands with the consumer attached, RA.v that with windows of one
    slot (RAnproof.v); the invariant is proved for this one (RAxproof.v).

    ** Script entries
    A script entry is [(thread, command)] with

      Inductive cmd := Op (j n : nat) | Reset (j : nat) | Detach | Attach | Sync.

    - [Op j n]   : one step of a push (P) / pop (C) operation: read choice [j], requested count [n] (looked at
                   only at pc 0, when an operation starts).  If the thread is in the middle of ANY operation
                   (pc <> 0, including a reset at pc 5) [Op] performs the next step of that operation (j and n
                   are then irrelevant: no step other than the ones at pc 0 loads anything).
    - [Reset j], [Detach], [Attach], [Sync] are accepted only by the CONSUMER and only at pc 0 (between two
                   operations).  Everywhere else - for the producer, or for a consumer with pc <> 0 - they are
                   no-ops.

    ** Steps of an operation, both threads
      pc 0, Op      check: n := max 1 (requested count); if n <= ca grant (pc := 2, cnt := n, off := 0), else
                    load the other index (any admissible message, acquire), ca := fresh availability ([pavail]
                    for P, [dist] for C), and grant if n <= ca now, else stay at pc 0 (a request n > len - 1 is
                    never granted: ca <= len - 1 always)
      pc 2, Op      access ONE slot of the window: slot [wadd len ix off] at absolute position [pos + off]
                    (write for P, read for C), off := off + 1, and when off = cnt go to pc 3
      pc 3, Op      ix := ix (+) cnt, pos := pos + cnt, ca := ca - cnt, pc := 0, and
                      P, attached C : append the message (release store, watermark = the new pos)
                      detached C    : nothing else - NO message is appended, the clock is not advanced
                                      ([Detached::advance] = [advance_local])
    ** Consumer only
      pc 0, Reset j "pc 4", the LOAD of [reset_index]: read any admissible message m of the producer's index
                    (choice j, acquire: join its view), remember it: nix := mval m, npos := mabs m; pc := 5.
                    (The load is executed by the script entry that starts the reset, so a thread never RESTS at
                    pc 4; the resting pcs are 0, 2, 3, 5.)
      pc 5, Op      the STORE of [reset_index]: ix := nix, pos := npos, ca := 0, pc := 0, and
                      attached : append the message (release store, watermark = the new pos)
                      detached : no message ([Detached::reset_index] only sets the local index)
      pc 0, Detach  det := true
      pc 0, Sync    append a message for the CURRENT local index (release store with the thread's view,
                    watermark = pos); ix, pos, ca unchanged.  ([Detached::sync_index]; the machine also accepts
                    it while attached, where it republishes the already published position - harmless.)
      pc 0, Attach  Sync, and det := false.

    [det]: detached?; [nix], [npos]: index / absolute position loaded by a reset in progress.  The producer never
    changes them.  (go_back / set_index of the crate are not modelled.)

    [acqP] / [acqC] say whether the producer's / the consumer's index loads (including the reset's load) join
    the view of the message read; [exec_x] is the machine with both set. *)
From Coq Require Import List Arith.
Import ListNotations.
Require Import MRB.Conc.RA.

Inductive cmd := Op (j n : nat) | Reset (j : nat) | Detach | Attach | Sync.

(* Same field names as RA.v's thread and configuration records (they shadow them). *)
Record thr_x := mkTx { ix : nat; ca : nat; V : view; pc : nat; pos : nat; cnt : nat; off : nat;
                       det : bool; nix : nat; npos : nat }.
Record cfg_x := mkCx { Mpi : list msg; Mci : list msg; metas : list meta; P : thr_x; C : thr_x; race : bool }.

Definition vzero := mkV 0 0 0 0 0 0.

Definition publishedC (c : cfg_x) : nat := mabs (last (Mci c) dmsg).
Definition publishedP (c : cfg_x) : nat := mabs (last (Mpi c) dmsg).

Section M.
Variables (acqP acqC : bool).
Variable len : nat.

Definition opP_a (j n0 : nat) (c : cfg_x) : cfg_x :=
  let t := P c in
  match pc t with
  | 0 =>
    let n := Nat.max 1 n0 in
    if n <=? ca t then
      mkCx (Mpi c) (Mci c) (metas c)
           (mkTx (ix t) (ca t) (V t) 2 (pos t) n 0 (det t) (nix t) (npos t)) (C c) (race c)
    else
      let i := pick (vci (V t)) (length (Mci c)) j in
      let m := nth i (Mci c) dmsg in
      let v0 := V t in
      let v1 := vjoin (mkV (vpi v0) i (kp v0) (kc v0) (wP v0) (wC v0)) (if acqP then mview m else vzero) in
      let a := pavail len (ix t) (mval m) in
      mkCx (Mpi c) (Mci c) (metas c)
           (mkTx (ix t) a v1 (if n <=? a then 2 else 0) (pos t) n 0 (det t) (nix t) (npos t)) (C c) (race c)
  | 2 =>
    let k := wadd len (ix t) (off t) in
    let mt := nth k (metas c) dmeta in
    let bad := negb (rclk mt <=? kc (V t)) in
    mkCx (Mpi c) (Mci c) (upd k (mkMeta (pos t + off t) (kp (V t)) (rpos mt) (rclk mt)) (metas c))
         (mkTx (ix t) (ca t) (V t) (if cnt t <=? off t + 1 then 3 else 2) (pos t) (cnt t) (off t + 1)
               (det t) (nix t) (npos t))
         (C c) (race c || bad)
  | 3 =>
    let ix' := wadd len (ix t) (cnt t) in
    let p' := pos t + cnt t in
    let v0 := V t in
    let v1 := mkV (length (Mpi c)) (vci v0) (kp v0) (kc v0) p' (wC v0) in
    let m := mkM ix' p' v1 in
    mkCx (Mpi c ++ [m]) (Mci c) (metas c)
         (mkTx ix' (ca t - cnt t) (mkV (vpi v1) (vci v1) (S (kp v1)) (kc v1) (wP v1) (wC v1)) 0 p' (cnt t) 0
               (det t) (nix t) (npos t))
         (C c) (race c)
  | _ => c
  end.

(* End of a consumer operation WITH a release store (new local index (ix', p'), availability ca', mode d). *)
Definition publishC (c : cfg_x) (ix' p' ca' : nat) (d : bool) : cfg_x :=
  let t := C c in
  let v0 := V t in
  let v1 := mkV (vpi v0) (length (Mci c)) (kp v0) (kc v0) (wP v0) p' in
  let m := mkM ix' p' v1 in
  mkCx (Mpi c) (Mci c ++ [m]) (metas c) (P c)
       (mkTx ix' ca' (mkV (vpi v1) (vci v1) (kp v1) (S (kc v1)) (wP v1) (wC v1)) 0 p' (cnt t) 0
             d (nix t) (npos t))
       (race c).

(* ... and WITHOUT (detached). *)
Definition localC (c : cfg_x) (ix' p' ca' : nat) : cfg_x :=
  let t := C c in
  mkCx (Mpi c) (Mci c) (metas c) (P c)
       (mkTx ix' ca' (V t) 0 p' (cnt t) 0 (det t) (nix t) (npos t)) (race c).

Definition finishC (c : cfg_x) (ix' p' ca' : nat) : cfg_x :=
  if det (C c) then localC c ix' p' ca' else publishC c ix' p' ca' false.

Definition opC_a (j n0 : nat) (c : cfg_x) : cfg_x :=
  let t := C c in
  match pc t with
  | 0 =>
    let n := Nat.max 1 n0 in
    if n <=? ca t then
      mkCx (Mpi c) (Mci c) (metas c) (P c)
           (mkTx (ix t) (ca t) (V t) 2 (pos t) n 0 (det t) (nix t) (npos t)) (race c)
    else
      let i := pick (vpi (V t)) (length (Mpi c)) j in
      let m := nth i (Mpi c) dmsg in
      let v0 := V t in
      let v1 := vjoin (mkV i (vci v0) (kp v0) (kc v0) (wP v0) (wC v0)) (if acqC then mview m else vzero) in
      let a := dist len (ix t) (mval m) in
      mkCx (Mpi c) (Mci c) (metas c) (P c)
           (mkTx (ix t) a v1 (if n <=? a then 2 else 0) (pos t) n 0 (det t) (nix t) (npos t)) (race c)
  | 2 =>
    let k := wadd len (ix t) (off t) in
    let mt := nth k (metas c) dmeta in
    let bad := negb (wclk mt <=? kp (V t)) in
    mkCx (Mpi c) (Mci c) (upd k (mkMeta (wpos mt) (wclk mt) (pos t + off t) (kc (V t))) (metas c))
         (P c)
         (mkTx (ix t) (ca t) (V t) (if cnt t <=? off t + 1 then 3 else 2) (pos t) (cnt t) (off t + 1)
               (det t) (nix t) (npos t))
         (race c || bad)
  | 3 => finishC c (wadd len (ix t) (cnt t)) (pos t + cnt t) (ca t - cnt t)
  | 5 => finishC c (nix t) (npos t) 0
  | _ => c
  end.

(* "pc 4": the load of reset_index. *)
Definition resetC_a (j : nat) (c : cfg_x) : cfg_x :=
  let t := C c in
  let i := pick (vpi (V t)) (length (Mpi c)) j in
  let m := nth i (Mpi c) dmsg in
  let v0 := V t in
  let v1 := vjoin (mkV i (vci v0) (kp v0) (kc v0) (wP v0) (wC v0)) (if acqC then mview m else vzero) in
  mkCx (Mpi c) (Mci c) (metas c) (P c)
       (mkTx (ix t) (ca t) v1 5 (pos t) (cnt t) (off t) (det t) (mval m) (mabs m)) (race c).

Definition detachC (c : cfg_x) : cfg_x :=
  let t := C c in
  mkCx (Mpi c) (Mci c) (metas c) (P c)
       (mkTx (ix t) (ca t) (V t) (pc t) (pos t) (cnt t) (off t) true (nix t) (npos t)) (race c).

Definition stepP_a (k : cmd) (c : cfg_x) : cfg_x :=
  match k with
  | Op j n => opP_a j n c
  | _ => c
  end.

Definition stepC_a (k : cmd) (c : cfg_x) : cfg_x :=
  let t := C c in
  match k with
  | Op j n => opC_a j n c
  | Reset j => match pc t with 0 => resetC_a j c | _ => c end
  | Detach  => match pc t with 0 => detachC c | _ => c end
  | Attach  => match pc t with 0 => publishC c (ix t) (pos t) (ca t) false | _ => c end
  | Sync    => match pc t with 0 => publishC c (ix t) (pos t) (ca t) (det t) | _ => c end
  end.

(* script entry: (thread (true = P), command) *)
Definition step_a (c : cfg_x) (s : bool * cmd) : cfg_x :=
  if fst s then stepP_a (snd s) c else stepC_a (snd s) c.
Definition exec_a (c : cfg_x) (script : list (bool * cmd)) : cfg_x := fold_left step_a script c.

(* Both threads start at absolute position [len] (so that "one lap earlier" never underflows), the consumer
   attached. *)
Definition init_x : cfg_x :=
  mkCx [mkM 0 len (vbot len)] [mkM 0 len (vbot len)]
       (map (fun k => mkMeta k 0 k 0) (seq 0 len))
       (mkTx 0 0 (v0P len) 0 len 0 0 false 0 0) (mkTx 0 0 (v0C len) 0 len 0 0 false 0 0) false.

End M.

(* The release/acquire machine: all index loads acquire. *)
Definition stepP_x := stepP_a true.
Definition stepC_x := stepC_a true.
Definition step_x := step_a true true.
Definition exec_x := exec_a true true.

(* Examples, len = 4 (capacity 3); read choice 99 = the latest message. *)
Definition sP (n : nat) : bool * cmd := (true, Op 99 n).
Definition sC (n : nat) : bool * cmd := (false, Op 99 n).
Definition kC (k : cmd) : bool * cmd := (false, k).

(* (race, P: (ix, pos, ca, pc), C: (ix, pos, ca, pc, det), position published by C) *)
Definition summary (c : cfg_x) :=
  (race c, (ix (P c), pos (P c), ca (P c), pc (P c)),
           (ix (C c), pos (C c), ca (C c), pc (C c), det (C c)), publishedC c).

(* [Op] commands only: the demo script of RAn.v, with the same result. *)
Definition demo_n : list (bool * cmd) :=
  [ sP 3; sP 3; sP 3; sP 3; sP 3;
    sC 2; sC 2; sC 2; sC 2;
    sP 2; sC 1; sP 2; sC 1; sP 2; sC 1; sP 2 ].
Example demo_n_race_free :
  summary (exec_x 4 (init_x 4) demo_n) = (false, (1, 9, 0, 0), (3, 7, 0, 0, false), 7).
Proof. vm_compute. reflexivity. Qed.

(* ---- reset_index ----
   P pushes 3 (positions 4,5,6); C pops 1 (position 4); P starts pushing 1 more (position 7) and, interleaved with
   P's write and store, C resets: it loads P's index (position 7 - the store of 8 has not happened yet), and
   publishes 7: the items at positions 5 and 6 are skipped, never read.
   P keeps pushing: it now gets 2 slots (positions 8, 9 = slots 0, 1: slot 1 holds the skipped item of position 5)
   and overwrites them; C pops the 3 items at positions 7, 8, 9. *)
Definition demo_reset : list (bool * cmd) :=
  [ sP 3; sP 3; sP 3; sP 3; sP 3;          (* P: load+grant 3, write slots 0,1,2, publish      -> pos 7 *)
    sC 1; sC 1; sC 1;                      (* C: load+grant 1, read slot 0, publish            -> pos 5 *)
    sP 1;                                  (* P: load (C at 5): 1 free slot, grant                       *)
    kC (Reset 99);                         (* C: reset, the load: sees P at 7                            *)
    sP 1; sP 1;                            (* P: write slot 3 (pos 7), publish                 -> pos 8 *)
    sC 0;                                  (* C: reset, the store: ix 3, pos 7 published (5, 6 skipped)  *)
    sP 2; sP 2; sP 2; sP 2;                (* P: load (C at 7): 2 free, write slots 0,1, publish -> pos 10 *)
    sC 3; sC 3; sC 3; sC 3; sC 3 ].        (* C: load+grant 3, read slots 3,0,1, publish       -> pos 10 *)

Example demo_reset_mid :   (* just after the reset: C at 7 = what it published; P at 8 *)
  summary (exec_x 4 (init_x 4) (firstn 13 demo_reset)) = (false, (0, 8, 0, 0), (3, 7, 0, 0, false), 7).
Proof. vm_compute. reflexivity. Qed.
Example demo_reset_race_free :
  summary (exec_x 4 (init_x 4) demo_reset) = (false, (2, 10, 0, 0), (2, 10, 0, 0, false), 10).
Proof. vm_compute. reflexivity. Qed.

(* A reset with a stale read choice reads the oldest message it may (the one at the thread's view); that is
   never behind the local index: here C has seen P at 7 and popped up to 5, the "stale" reset takes it to 7. *)
Example demo_reset_stale :
  summary (exec_x 4 (init_x 4) (firstn 8 demo_reset ++ [kC (Reset 0); sC 0]))
  = (false, (3, 7, 0, 0), (3, 7, 0, 0, false), 7).
Proof. vm_compute. reflexivity. Qed.

(* The same script with Relaxed consumer loads (no join) races. *)
Example demo_reset_relaxed_races :
  race (exec_a true false 4 (init_x 4) demo_reset) = true.
Proof. vm_compute. reflexivity. Qed.

(* ---- detached operation ----
   P fills the ring (positions 4,5,6).  C detaches and pops 2 items: its local index moves to 6, nothing is
   published.  P wants to push: it still sees C at 4, no free slot.  C syncs (publishes 6).  Now P gets the two
   released slots: positions 7, 8 = slots 3 and 0 - it wraps around into a slot C has read while detached.
   C pops 1 more item (detached), attaches (publishes 7), pops 2 more (attached: published at once). *)
Definition demo_detached : list (bool * cmd) :=
  [ sP 3; sP 3; sP 3; sP 3; sP 3;          (* P: load+grant 3, write slots 0,1,2, publish      -> pos 7 *)
    kC Detach;
    sC 2; sC 2; sC 2; sC 2;                (* C: load+grant 2, read slots 0,1, LOCAL advance   -> pos 6 *)
    sP 2;                                  (* P: load: C still at 4, nothing free, no grant              *)
    kC Sync;                               (* C: publish 6                                               *)
    sP 2; sP 2; sP 2; sP 2;                (* P: load (C at 6): 2 free, write slots 3,0, publish -> pos 9 *)
    sC 1; sC 1; sC 1;                      (* C: load+grant 1, read slot 2, local advance      -> pos 7 *)
    kC Attach;                             (* C: publish 7, attached again                               *)
    sC 2; sC 2; sC 2; sC 2 ].              (* C: grant 2 from ca, read slots 3,0, publish      -> pos 9 *)

Example demo_detached_blocked :   (* before the sync: C is at 6 locally, 4 is published, P got nothing *)
  summary (exec_x 4 (init_x 4) (firstn 11 demo_detached)) = (false, (3, 7, 0, 0), (2, 6, 1, 0, true), 4).
Proof. vm_compute. reflexivity. Qed.
Example demo_detached_wrapped :   (* after the sync P has written slots 3 and 0 *)
  summary (exec_x 4 (init_x 4) (firstn 16 demo_detached)) = (false, (1, 9, 0, 0), (2, 6, 1, 0, true), 6).
Proof. vm_compute. reflexivity. Qed.
Example demo_detached_race_free :
  summary (exec_x 4 (init_x 4) demo_detached) = (false, (1, 9, 0, 0), (1, 9, 0, 0, false), 9).
Proof. vm_compute. reflexivity. Qed.

(* Reset while detached: the local index jumps, nothing is published until the sync. *)
Example demo_detached_reset :
  summary (exec_x 4 (init_x 4) (firstn 6 demo_detached ++ [kC (Reset 99); sC 0]))
  = (false, (3, 7, 0, 0), (3, 7, 0, 0, true), 4).
Proof. vm_compute. reflexivity. Qed.

(* The same script with Relaxed producer loads races (P overwrites slot 3/0 without having acquired C's reads). *)
Example demo_detached_relaxed_races :
  race (exec_a false true 4 (init_x 4) demo_detached) = true.
Proof. vm_compute. reflexivity. Qed.
