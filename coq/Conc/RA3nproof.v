(** * Race freedom of the multi-slot three-stage release/acquire machine (RA3n.v).

    No step is examined here.  RA3n.v is RA3x.v restricted to [Op] commands with every thread attached
    ([embed3n]), [Inv3n c] says of [c] what [Inv3x] (RA3xproof.v) says of [embed3n c], and a step commutes with
    [embed3n]: every fact about RA3n.v is an instance of the fact about RA3x.v.
    In the same way RA3.v is RA3n.v with every requested count 1 ([forget3n], at the end). *)
Require Import MRB.Conc.RA MRB.Conc.RA3 MRB.Conc.RA3proof MRB.Conc.RA3n.
Require MRB.Conc.RA3xproof.
From Coq Require Import List Arith Lia.

Local Arguments Nat.leb : simpl never.

Definition embed_t3n (t : thr3n) : RA3x.thr3x :=
  RA3x.mkT3x (ix3 t) (ca3 t) (V3 t) (pc3 t) (pos3 t) (cnt3 t) (off3 t) false 0 0.
Definition embed3n (c : cfg3n) : RA3x.cfg3x :=
  RA3x.mkC3x (Mpi3 c) (Mwi3 c) (Mci3 c) (metas3 c) (embed_t3n (P3 c)) (embed_t3n (W3 c)) (embed_t3n (C3 c)) (race3 c).

(* pc 5 (the store of a reset) is the one place where [Op] does something RA3n.v does not know. *)
Lemma embed3n_step len c t j n : pc3 (W3 c) <> 5 -> pc3 (C3 c) <> 5 ->
  embed3n (step3_n len c (t, j, n)) = RA3x.step3_x len (embed3n c) (t, RA3x.Op j n).
Proof.
  intros HW HC.
  destruct t; cbn [step3_n step3_a RA3x.step3_x RA3x.step3_a fst snd RA3x.stepP3_a RA3x.stepW3_a RA3x.stepC3_a].
  - unfold stepP3_a, RA3x.opP3_a. cbn [embed3n RA3x.P3 embed_t3n RA3x.pc3].
    destruct (pc3 (P3 c)) as [|[|[|[|q]]]]; try reflexivity.
    cbv zeta. cbn [RA3x.ca3 embed_t3n]. destruct (Nat.max 1 n <=? ca3 (P3 c)); reflexivity.
  - unfold stepW3_a, RA3x.opW3_a. cbn [embed3n RA3x.W3 embed_t3n RA3x.pc3].
    destruct (pc3 (W3 c)) as [|[|[|[|[|[|q]]]]]]; try reflexivity.
    + cbv zeta. cbn [RA3x.ca3 embed_t3n]. destruct (Nat.max 1 n <=? ca3 (W3 c)); reflexivity.
    + congruence.
  - unfold stepC3_a, RA3x.opC3_a. cbn [embed3n RA3x.C3 embed_t3n RA3x.pc3].
    destruct (pc3 (C3 c)) as [|[|[|[|[|[|q]]]]]]; try reflexivity.
    + cbv zeta. cbn [RA3x.ca3 embed_t3n]. destruct (Nat.max 1 n <=? ca3 (C3 c)); reflexivity.
    + congruence.
Qed.

Lemma step3_n_pc len c s : pc3 (W3 c) <> 5 -> pc3 (C3 c) <> 5 ->
  pc3 (W3 (step3_n len c s)) <> 5 /\ pc3 (C3 (step3_n len c s)) <> 5.
Proof.
  intros HW HC. destruct s as [[[| |] j] n]; cbn [step3_n step3_a].
  - unfold stepP3_a. destruct (pc3 (P3 c)) as [|[|[|[|q]]]]; cbv zeta; try (split; assumption).
    destruct (Nat.max 1 n <=? ca3 (P3 c)); split; assumption.
  - unfold stepW3_a. destruct (pc3 (W3 c)) as [|[|[|[|q]]]] eqn:E; cbv zeta; try (rewrite E; split; assumption).
    + destruct (Nat.max 1 n <=? ca3 (W3 c)); [split; [discriminate | assumption]|].
      cbn [W3 C3 pc3]. split; [destruct (_ <=? _); discriminate | assumption].
    + cbn [W3 C3 pc3]. split; [destruct (_ <=? _); discriminate | assumption].
    + split; [discriminate | assumption].
  - unfold stepC3_a. destruct (pc3 (C3 c)) as [|[|[|[|q]]]] eqn:E; cbv zeta; try (rewrite E; split; assumption).
    + destruct (Nat.max 1 n <=? ca3 (C3 c)); [split; [assumption | discriminate]|].
      cbn [W3 C3 pc3]. split; [assumption | destruct (_ <=? _); discriminate].
    + cbn [W3 C3 pc3]. split; [assumption | destruct (_ <=? _); discriminate].
    + split; [assumption | discriminate].
Qed.

Section Inv3n.
Variable len : nat.
Hypothesis Hlen : 0 < len.

Definition mtn3 (c : cfg3n) (k : nat) : meta3 := nth k (metas3 c) dmeta3.

Definition view_ok3n (c : cfg3n) (v : view3) : Prop :=
  vpi3 v < length (Mpi3 c) /\ vwi3 v < length (Mwi3 c) /\ vci3 v < length (Mci3 c) /\
  wP3 v <= pos3 (P3 c) /\ wW3 v <= pos3 (W3 c) /\ wC3 v <= pos3 (C3 c) /\
  mabs3 (nth (vpi3 v) (Mpi3 c) dmsg3) <= wP3 v /\
  mabs3 (nth (vwi3 v) (Mwi3 c) dmsg3) <= wW3 v /\
  mabs3 (nth (vci3 v) (Mci3 c) dmsg3) <= wC3 v /\
  wC3 v <= wW3 v /\ wW3 v <= wP3 v /\ wP3 v + 1 <= wC3 v + len /\
  (forall k, k < len -> wcover (mtn3 c k) v) /\
  (forall k, k < len -> rpos3 (mtn3 c k) < wC3 v -> rclk3 (mtn3 c k) <= kc3 v).

Definition msg_ok3n (c : cfg3n) (m : msg3) : Prop :=
  mval3 m = mabs3 m mod len /\ view_ok3n c (mview3 m).

Definition seenP3n (c : cfg3n) := mabs3 (nth (vci3 (V3 (P3 c))) (Mci3 c) dmsg3).
Definition seenW3n (c : cfg3n) := mabs3 (nth (vpi3 (V3 (W3 c))) (Mpi3 c) dmsg3).
Definition seenC3n (c : cfg3n) := mabs3 (nth (vwi3 (V3 (C3 c))) (Mwi3 c) dmsg3).

(* pc 0: no window; pc 2: window granted, [off] slots done, more to do; pc 3: window done, not yet published *)
Definition pc_okn (t : thr3n) : Prop :=
  (pc3 t = 0 /\ off3 t = 0) \/
  (pc3 t = 2 /\ off3 t < cnt3 t /\ cnt3 t <= ca3 t) \/
  (pc3 t = 3 /\ off3 t = cnt3 t /\ cnt3 t <= ca3 t).

Definition slot_okn (c : cfg3n) (k : nat) : Prop :=
  wpos3 (mtn3 c k) mod len = k /\ rpos3 (mtn3 c k) mod len = k /\
  (wt (mtn3 c k) = TP ->
     wpos3 (mtn3 c k) < pos3 (P3 c) + off3 (P3 c) /\ wclk3 (mtn3 c k) <= kp3 (V3 (P3 c))) /\
  (wt (mtn3 c k) = TW ->
     wpos3 (mtn3 c k) < pos3 (W3 c) + off3 (W3 c) /\ wclk3 (mtn3 c k) <= kw3 (V3 (W3 c))) /\
  rpos3 (mtn3 c k) < pos3 (C3 c) + off3 (C3 c) /\ rclk3 (mtn3 c k) <= kc3 (V3 (C3 c)).

Record Inv3n (c : cfg3n) : Prop := mkInv3n {
  k_metas : length (metas3 c) = len;
  k_npi : 0 < length (Mpi3 c); k_nwi : 0 < length (Mwi3 c); k_nci : 0 < length (Mci3 c);
  k_spi : sorted3 (Mpi3 c); k_swi : sorted3 (Mwi3 c); k_sci : sorted3 (Mci3 c);
  k_lpi : lastabs3 (Mpi3 c) = pos3 (P3 c);
  k_lwi : lastabs3 (Mwi3 c) = pos3 (W3 c);
  k_lci : lastabs3 (Mci3 c) = pos3 (C3 c);
  k_mpi : Forall (msg_ok3n c) (Mpi3 c);
  k_mwi : Forall (msg_ok3n c) (Mwi3 c);
  k_mci : Forall (msg_ok3n c) (Mci3 c);
  k_wpi : forall i, i < length (Mpi3 c) -> mabs3 (nth i (Mpi3 c) dmsg3) <= wP3 (mview3 (nth i (Mpi3 c) dmsg3));
  k_wwi : forall i, i < length (Mwi3 c) -> mabs3 (nth i (Mwi3 c) dmsg3) <= wW3 (mview3 (nth i (Mwi3 c) dmsg3));
  k_wci : forall i, i < length (Mci3 c) -> mabs3 (nth i (Mci3 c) dmsg3) <= wC3 (mview3 (nth i (Mci3 c) dmsg3));
  k_vP : view_ok3n c (V3 (P3 c));
  k_vW : view_ok3n c (V3 (W3 c));
  k_vC : view_ok3n c (V3 (C3 c));
  k_ixP : ix3 (P3 c) = pos3 (P3 c) mod len;
  k_ixW : ix3 (W3 c) = pos3 (W3 c) mod len;
  k_ixC : ix3 (C3 c) = pos3 (C3 c) mod len;
  k_caP : ca3 (P3 c) + pos3 (P3 c) + 1 <= seenP3n c + len;
  k_caW : ca3 (W3 c) + pos3 (W3 c) <= seenW3n c;
  k_caC : ca3 (C3 c) + pos3 (C3 c) <= seenC3n c;
  k_pcP : pc_okn (P3 c); k_pcW : pc_okn (W3 c); k_pcC : pc_okn (C3 c);
  k_slot : forall k, k < len -> slot_okn c k;
  k_race : race3 c = false
}.

Lemma pc_okn_no5 t : pc_okn t -> pc3 t <> 5.
Proof. intros [[E _]|[[E _]|[E _]]]; rewrite E; discriminate. Qed.

(* Field by field the two invariants are convertible, except: attached, published = local is one equation;
   and [pc_okr] allows pc 5. *)
Lemma inv3n_inv3x c :
  Inv3n c <-> RA3xproof.Inv3x len (embed3n c) /\ pc3 (W3 c) <> 5 /\ pc3 (C3 c) <> 5.
Proof.
  split.
  - intros I. split; [|split; apply pc_okn_no5; apply I].
    destruct I. constructor; try assumption.
    + apply Nat.eq_le_incl; assumption.
    + apply Nat.eq_le_incl; assumption.
    + intros _; assumption.
    + intros _; assumption.
    + left; assumption.
    + left; assumption.
  - intros (I & HW & HC). destruct I. constructor; try assumption.
    + apply x_attW; reflexivity.
    + apply x_attC; reflexivity.
    + destruct x_pcW as [H|[H _]]; [exact H | contradiction].
    + destruct x_pcC as [H|[H _]]; [exact H | contradiction].
Qed.

Lemma step3n_inv c s : Inv3n c -> Inv3n (step3_n len c s).
Proof.
  intros I. apply inv3n_inv3x in I as (I & HW & HC). apply inv3n_inv3x. split.
  - destruct s as [[t j] n]. rewrite embed3n_step by assumption. apply RA3xproof.step3x_inv; assumption.
  - apply step3_n_pc; assumption.
Qed.

Lemma init3n_inv : Inv3n (init3_n len).
Proof. apply inv3n_inv3x. split; [exact (RA3xproof.init3x_inv len Hlen) | split; discriminate]. Qed.

Theorem exec3n_inv script : Inv3n (exec3_n len (init3_n len) script).
Proof.
  exact (fold_left_inv _ Inv3n step3n_inv script _ init3n_inv).
Qed.

Lemma behind3n c : Inv3n c ->
  ca3 (C3 c) + pos3 (C3 c) <= pos3 (W3 c) /\ ca3 (W3 c) + pos3 (W3 c) <= pos3 (P3 c) /\
  ca3 (P3 c) + pos3 (P3 c) + 1 <= pos3 (C3 c) + len.
Proof.
  intros I. pose proof (RA3xproof.behind3x len (embed3n c) (proj1 (proj1 (inv3n_inv3x c) I))) as H.
  cbn [embed3n RA3x.Mwi3 RA3x.Mci3] in H. rewrite (k_lwi c I), (k_lci c I) in H. exact H.
Qed.

Lemma off_le_ca_n t : pc_okn t -> off3 t <= ca3 t.
Proof. exact (RA3xproof.off_le_ca_x (embed_t3n t)). Qed.
Lemma pc0_off3 t : pc_okn t -> pc3 t = 0 -> off3 t = 0.
Proof. intros [[_ X]|[(X&_)|(X&_)]] E; congruence. Qed.
End Inv3n.

(* Every release/acquire-consistent execution of the multi-slot three-stage pipeline
   (any interleaving, any stale read, any sequence of requested window sizes) is race free. *)
Theorem pipeline3_n_race_free : forall len script, 0 < len -> race3 (exec3_n len (init3_n len) script) = false.
Proof. intros len script Hl. apply (k_race len _ (exec3n_inv len Hl script)). Qed.
Print Assumptions pipeline3_n_race_free.

(* Stage order and capacity bound at every moment of every execution, also in the middle of an operation. *)
Theorem order_always_3n : forall len script, 0 < len ->
  let c := exec3_n len (init3_n len) script in
  pos3 (C3 c) <= pos3 (W3 c) /\ pos3 (W3 c) <= pos3 (P3 c) /\ pos3 (P3 c) + 1 <= pos3 (C3 c) + len /\
  pos3 (C3 c) + off3 (C3 c) <= pos3 (W3 c) /\
  pos3 (W3 c) + off3 (W3 c) <= pos3 (P3 c) /\
  pos3 (P3 c) + off3 (P3 c) + 1 <= pos3 (C3 c) + len.
Proof.
  intros len script Hl c. pose proof (exec3n_inv len Hl script) as I. fold c in I.
  pose proof (behind3n len c I). pose proof (off_le_ca_n _ (k_pcP len c I)).
  pose proof (off_le_ca_n _ (k_pcW len c I)). pose proof (off_le_ca_n _ (k_pcC len c I)). lia.
Qed.
Print Assumptions order_always_3n.

Definition forget_t3n (t : thr3n) : thr3 := mkT3 (ix3 t) (ca3 t) (V3 t) (pc3 t) (pos3 t).
Definition forget3n (c : cfg3n) : cfg3 :=
  mkC3 (Mpi3 c) (Mwi3 c) (Mci3 c) (metas3 c) (forget_t3n (P3 c)) (forget_t3n (W3 c)) (forget_t3n (C3 c)) (race3 c).
Definition unit_entry3 (s : tid * nat) : tid * nat * nat := (fst s, snd s, 1).

(* a thread that only ever asks for one slot: the pc says where in its window it is *)
Definition unit_t3n (t : thr3n) : Prop :=
  (pc3 t = 0 /\ off3 t = 0) \/ (pc3 t = 2 /\ off3 t = 0 /\ cnt3 t = 1) \/ (pc3 t = 3 /\ off3 t = 1 /\ cnt3 t = 1).
Definition unit3n (c : cfg3n) : Prop := unit_t3n (P3 c) /\ unit_t3n (W3 c) /\ unit_t3n (C3 c).

(* A step with request 1 is a step of RA3.v.  The slot of a one-slot window is [wadd len ix 0], which is [ix]
   only because the index is kept below [len]. *)
Lemma forget3n_step len c s : 0 < len -> Inv3n len c -> unit3n c ->
  forget3n (step3_n len c (unit_entry3 s)) = step3 len (forget3n c) s /\ unit3n (step3_n len c (unit_entry3 s)).
Proof.
  intros Hlen I (SP & SW & SC).
  assert (HP : ix3 (P3 c) < len) by (rewrite (k_ixP len c I); apply Nat.mod_upper_bound; lia).
  assert (HW : ix3 (W3 c) < len) by (rewrite (k_ixW len c I); apply Nat.mod_upper_bound; lia).
  assert (HC : ix3 (C3 c) < len) by (rewrite (k_ixC len c I); apply Nat.mod_upper_bound; lia).
  clear I.
  destruct s as [[| |] j]; cbn [unit_entry3 step3_n step3_a step3 fst snd].
  - remember (stepP3_a true len j 1 c) as c' eqn:E. unfold stepP3_a in E.
    unfold stepP. cbn [forget3n forget_t3n RA3.P3 RA3.pc3 RA3.ca3].
    destruct SP as [[H Ho]|[(H & Ho & Hc)|(H & Ho & Hc)]]; rewrite H in *; cbv zeta in E.
    + change (Nat.max 1 1) with 1 in E. destruct (1 <=? ca3 (P3 c)); subst c'.
      * split; [reflexivity | split; [right; left; auto | auto]].
      * split; [reflexivity | split; [cbn | auto]].
        destruct (1 <=? pavail _ _ _); [right; left; auto | left; auto].
    + rewrite Ho, Hc, (wadd_0 len _ HP), Nat.add_0_r in E. subst c'.
      split; [reflexivity | split; [right; right; auto | auto]].
    + rewrite Hc, Nat.add_1_r in E. subst c'.
      split; [reflexivity | split; [left; auto | auto]].
  - remember (stepW3_a true len j 1 c) as c' eqn:E. unfold stepW3_a in E.
    unfold stepW. cbn [forget3n forget_t3n RA3.W3 RA3.pc3 RA3.ca3].
    destruct SW as [[H Ho]|[(H & Ho & Hc)|(H & Ho & Hc)]]; rewrite H in *; cbv zeta in E.
    + change (Nat.max 1 1) with 1 in E. destruct (1 <=? ca3 (W3 c)); subst c'.
      * split; [reflexivity | split; [|split]; [auto | right; left; auto | auto]].
      * split; [reflexivity | split; [|split]; [auto | cbn | auto]].
        destruct (1 <=? dist _ _ _); [right; left; auto | left; auto].
    + rewrite Ho, Hc, (wadd_0 len _ HW), Nat.add_0_r in E. subst c'.
      split; [reflexivity | split; [|split]; [auto | right; right; auto | auto]].
    + rewrite Hc, Nat.add_1_r in E. subst c'.
      split; [reflexivity | split; [|split]; [auto | left; auto | auto]].
  - remember (stepC3_a true len j 1 c) as c' eqn:E. unfold stepC3_a in E.
    unfold stepC. cbn [forget3n forget_t3n RA3.C3 RA3.pc3 RA3.ca3].
    destruct SC as [[H Ho]|[(H & Ho & Hc)|(H & Ho & Hc)]]; rewrite H in *; cbv zeta in E.
    + change (Nat.max 1 1) with 1 in E. destruct (1 <=? ca3 (C3 c)); subst c'.
      * split; [reflexivity | split; [|split]; [auto | auto | right; left; auto]].
      * split; [reflexivity | split; [|split]; [auto | auto | cbn]].
        destruct (1 <=? dist _ _ _); [right; left; auto | left; auto].
    + rewrite Ho, Hc, (wadd_0 len _ HC), Nat.add_0_r in E. subst c'.
      split; [reflexivity | split; [|split]; [auto | auto | right; right; auto]].
    + rewrite Hc, Nat.add_1_r in E. subst c'.
      split; [reflexivity | split; [|split]; [auto | auto | left; auto]].
Qed.

Lemma forget3n_exec len script : 0 < len -> forall c, Inv3n len c -> unit3n c ->
  forget3n (exec3_n len c (map unit_entry3 script)) = exec3 len (forget3n c) script.
Proof.
  intros Hlen. induction script as [|s r IH]; intros c I S; [reflexivity|].
  destruct (forget3n_step len c s Hlen I S) as [E S'].
  cbn [map]. unfold exec3. cbn [fold_left]. rewrite <- E.
  apply IH; [apply step3n_inv|]; assumption.
Qed.

(* Every execution of RA3.v is an execution of RA3n.v in which each operation asks for one slot. *)
Theorem exec3_forget3n : forall len script, 0 < len ->
  exec3 len (init3 len) script = forget3n (exec3_n len (init3_n len) (map unit_entry3 script)).
Proof.
  intros len script Hlen. symmetry.
  apply (forget3n_exec len script Hlen (init3_n len) (init3n_inv len Hlen)).
  repeat split; left; auto.
Qed.

Theorem pipeline3_race_free : forall len script, 0 < len -> RA3.race3 (exec3 len (init3 len) script) = false.
Proof.
  intros len script Hlen. rewrite exec3_forget3n by assumption.
  exact (pipeline3_n_race_free len (map unit_entry3 script) Hlen).
Qed.
Print Assumptions pipeline3_race_free.
