(** * C07, last sentence: observing a peer as dead (message passing through the liveness word).

    "is_prod_alive / is_work_alive / is_cons_alive turn false only after the corresponding iterator was dropped,
     and a thread that observes a peer as dead also observes everything that peer published before."

    A release/acquire view machine in the style of [RA.v] (append-only message histories, per-thread views, stale
    reads chosen by the script), with the orderings as boolean parameters as in [Drop.v].

    Threads
    - X, the peer being dropped.  It performs [k] publications, numbered 1..k; publication i is a non-atomic data
      write (write clock [dw] becomes i) followed by a Release store of the value i to X's index word (the ring
      arithmetic is abstracted to the publication counter).  Then its drop: [fetch_and(!bitX)] on the liveness word,
      acquire iff [xacq], release iff [rel].
    - Z, another iterator being dropped: one [fetch_and(!bitZ)], acquire iff [zacq], release iff [zrel].  The script
      decides whether it lands before or after X's RMW in the modification order of the liveness word; when it lands
      after, an observer reading Z's message is synchronising with X through the release sequence.
    - Y, the observer.  It repeatedly loads the liveness word (acquire iff [acq]); the load may return ANY message
      of the history at or after Y's view of the word (coherence), the script chooses which.  When the returned
      value has X's bit clear, Y has "observed X dead" and then (1) reads all the data X ever wrote, without
      consulting the index (race detector: every write of X must be in Y's view), and (2) loads X's index word
      (again any message at or after Y's view of that word) and records the value.

    C11 rules encoded (C11 5.1.2.4 / C++ [intro.races], as in the view semantics of RC11 / promising):
    - a Release write publishes the writer's view in its message; an Acquire read joins the view of the message
      it reads into the reader's view; a Relaxed read only advances the reader's timestamp for that location;
    - coherence: a read cannot return a message older than the one in the reader's view of the location;
    - atomicity of RMW: it reads the last message of the modification order and its message is placed right after;
    - RELEASE SEQUENCE: the message of an RMW carries the view of the message it read, whatever the RMW's own
      ordering ("a release sequence headed by a release operation A is continued by read-modify-write operations";
      an acquire load that reads from any member of the sequence synchronises with A).  A relaxed RMW adds nothing
      of its own thread's view, but it does not cut the chain.
    - a data race is a pair of conflicting non-atomic accesses not ordered by happens-before: the reader's view
      must contain the write clock, and the writer must not write after an unsynchronised read.

    The theorems hold for every number of publications [k], every script (interleaving and stale-read choices, any
    length), and every choice of the orderings that the property does not depend on ([xacq], [zacq], [zrel]).
    They are proved by an inductive invariant, not by enumeration. *)
From Coq Require Import List Arith Lia.
Import ListNotations.

Record view := mkV { vd : nat; vi : nat; vl : nat }.
(* vd: X's data writes known (publication number); vi / vl: timestamp known of X's index word / the liveness word *)
Definition vbot := mkV 0 0 0.
Definition vjoin (a b : view) : view := mkV (max (vd a) (vd b)) (max (vi a) (vi b)) (max (vl a) (vl b)).

Record lmsg := mkL { lx : bool; lz : bool; lview : view }.   (* liveness word: X's bit, Z's bit *)
Record imsg := mkI { ival : nat; iview : view }.             (* X's index word *)
Record thr := mkT { pc : nat; V : view; n : nat }.           (* n: X: publications completed; Y: index value read *)
Record cfg := mkC { L : list lmsg; I : list imsg; dw : nat; X : thr; Z : thr; Y : thr; race : bool }.

Definition dL := mkL true true vbot.
Definition dI := mkI 0 vbot.
Definition pick (lo len j : nat) : nat := Nat.min (Nat.max j lo) (len - 1).

Inductive tid := TX | TZ | TY.

(** [fetch_and] on the liveness word by a thread with view [v]: returns the thread's new view and the new message.
    The message view always contains the view of the message read (release sequence). *)
Definition rmw (a r isx : bool) (v : view) (l : list lmsg) : view * lmsg :=
  let m := last l dL in
  let ts := length l in
  let v0 := mkV (vd v) (vi v) ts in
  let v1 := if a then vjoin v0 (lview m) else v0 in
  let mv := vjoin (lview m) (if r then v1 else mkV 0 0 ts) in
  (v1, mkL (if isx then false else lx m) (if isx then lz m else false) mv).

Lemma vjoin_knows_l a b x : x <= vd a /\ x <= vi a -> x <= vd (vjoin a b) /\ x <= vi (vjoin a b).
Proof. cbn [vjoin vd vi]. lia. Qed.
Lemma vjoin_knows_r a b x : x <= vd b /\ x <= vi b -> x <= vd (vjoin a b) /\ x <= vi (vjoin a b).
Proof. cbn [vjoin vd vi]. lia. Qed.
Lemma pick_last lo len j : len - 1 <= lo -> pick lo len j = len - 1.
Proof. unfold pick. lia. Qed.

Section M.
Variables (k : nat) (acq rel xacq zacq zrel : bool).

Definition stepX (c : cfg) : cfg :=
  let t := X c in
  let v := V t in
  match pc t with
  | 0 =>
    if n t <? k then (* data write of publication n+1; races with any read Y has already done *)
      mkC (L c) (I c) (S (dw c)) (mkT 1 (mkV (S (dw c)) (vi v) (vl v)) (n t)) (Z c) (Y c)
          (race c || (2 <=? pc (Y c)))
    else (* drop *)
      let r := rmw xacq rel true v (L c) in
      mkC (L c ++ [snd r]) (I c) (dw c) (mkT 2 (fst r) (n t)) (Z c) (Y c) (race c)
  | 1 => (* Release store of the index word *)
    let v1 := mkV (vd v) (length (I c)) (vl v) in
    mkC (L c) (I c ++ [mkI (S (n t)) v1]) (dw c) (mkT 0 v1 (S (n t))) (Z c) (Y c) (race c)
  | _ => c
  end.

Definition stepZ (c : cfg) : cfg :=
  let t := Z c in
  match pc t with
  | 0 =>
    let r := rmw zacq zrel false (V t) (L c) in
    mkC (L c ++ [snd r]) (I c) (dw c) (X c) (mkT 1 (fst r) (n t)) (Y c) (race c)
  | _ => c
  end.

Definition stepY (j : nat) (c : cfg) : cfg :=
  let t := Y c in
  let v := V t in
  match pc t with
  | 0 => (* is_x_alive(): load the liveness word *)
    let i := pick (vl v) (length (L c)) j in
    let m := nth i (L c) dL in
    let v0 := mkV (vd v) (vi v) i in
    let v1 := if acq then vjoin v0 (lview m) else v0 in
    mkC (L c) (I c) (dw c) (X c) (Z c) (mkT (if lx m then 0 else 1) v1 (n t)) (race c)
  | 1 => (* read everything X wrote *)
    mkC (L c) (I c) (dw c) (X c) (Z c) (mkT 2 v (n t)) (race c || negb (dw c <=? vd v))
  | 2 => (* Acquire load of X's index word *)
    let i := pick (vi v) (length (I c)) j in
    let m := nth i (I c) dI in
    mkC (L c) (I c) (dw c) (X c) (Z c) (mkT 3 (vjoin (mkV (vd v) i (vl v)) (iview m)) (ival m)) (race c)
  | _ => c
  end.

Definition step (c : cfg) (s : tid * nat) : cfg :=
  match fst s with TX => stepX c | TZ => stepZ c | TY => stepY (snd s) c end.

Definition init : cfg := mkC [dL] [dI] 0 (mkT 0 vbot 0) (mkT 0 vbot 0) (mkT 0 vbot 0) false.
Definition exec (script : list (tid * nat)) : cfg := fold_left step script init.

Definition saw_dead (c : cfg) : Prop := 1 <= pc (Y c).     (* Y has read X's bit as clear *)
Definition dropped (c : cfg) : Prop := pc (X c) = 2.       (* X has executed its fetch_and *)
Definition idx_read (c : cfg) : Prop := pc (Y c) = 3.      (* Y has loaded X's index word; the value is [n (Y c)] *)

(* [n (X c)]: publications completed; [n (Y c)]: the index value read *)
Record Inv (c : cfg) : Prop := mkInv {
  iLdead : forall m, In m (L c) -> lx m = false -> pc (X c) = 2;
  iLview : rel = true -> forall m, In m (L c) -> lx m = false -> k <= vd (lview m) /\ k <= vi (lview m);
  iXpc : pc (X c) <= 2;
  iXn : n (X c) <= k;
  iXmid : pc (X c) = 1 -> n (X c) < k;
  iXend : pc (X c) = 2 -> n (X c) = k;
  iXdw : dw c = n (X c) + (if pc (X c) =? 1 then 1 else 0);
  iXv : pc (X c) <> 2 -> dw c <= vd (V (X c)) /\ n (X c) <= vi (V (X c));
  iI : map ival (I c) = seq 0 (S (n (X c)));
  iYdead : 1 <= pc (Y c) -> pc (X c) = 2;
  iYview : acq = true -> rel = true -> 1 <= pc (Y c) -> k <= vd (V (Y c)) /\ k <= vi (V (Y c));
  iYrace : acq = true -> rel = true -> race c = false;
  iYidx : acq = true -> rel = true -> pc (Y c) = 3 -> n (Y c) = k }.

(* the default message has X's bit set *)
Lemma last_dead (l : list lmsg) : lx (last l dL) = false -> In (last l dL) l.
Proof. induction l as [|a [|b r] IH]; [discriminate | left; reflexivity | intros H; right; exact (IH H)]. Qed.

Lemma nth_dead (i : nat) (l : list lmsg) : lx (nth i l dL) = false -> In (nth i l dL) l.
Proof. destruct (nth_in_or_default i l dL) as [H| ->]; [intros _; exact H | discriminate]. Qed.

Lemma last_ival (l : list imsg) : ival (last l dI) = last (map ival l) 0.
Proof.
  induction l as [|a r IH]; [reflexivity|].
  destruct r as [|b r']; [reflexivity|].
  change (last (a :: b :: r') dI) with (last (b :: r') dI). rewrite IH. reflexivity.
Qed.

Lemma length_I c : Inv c -> length (I c) = S (n (X c)).
Proof. intros H. rewrite <- (map_length ival), (iI c H), seq_length. reflexivity. Qed.

Lemma inv_init : Inv init.
Proof.
  constructor; cbn [init L I dw X Z Y race pc V n dL lx lview vbot vd vi In map seq Nat.eqb];
    try (intros; lia); try reflexivity.
  - intros m [E|[]] Hx. subst m. discriminate.
  - intros _ m [E|[]] Hx. subst m. discriminate.
Qed.

Lemma inv_stepX c : Inv c -> Inv (stepX c).
Proof.
  intros H. pose proof (length_I c H) as HlenI.
  destruct H as [hLdead hLview hXpc hXn hXmid hXend hXdw hXv hI hYdead hYview hYrace hYidx]. unfold stepX.
  destruct (pc (X c)) as [|[|p]] eqn:Epc.
  - destruct (n (X c) <? k) eqn:Elt; [apply Nat.ltb_lt in Elt | apply Nat.ltb_ge in Elt].
    + (* data write *)
      assert (HY : pc (Y c) = 0) by (destruct (pc (Y c)) eqn:EY; [reflexivity | exfalso; lia]).
      cbn [Nat.eqb] in hXdw.
      constructor; cbn [L I dw X Z Y race pc V n vd vi vl Nat.eqb]; auto; try (intros; lia).
      * (* iLdead *) intros m Hm Hx. specialize (hLdead m Hm Hx). lia.
      * (* iYrace *) intros Ha Hr. rewrite (hYrace Ha Hr), HY. reflexivity.
    + (* drop *)
      assert (Hn : n (X c) = k) by lia.
      cbn [Nat.eqb] in hXdw. specialize (hXv ltac:(lia)).
      constructor; unfold rmw; cbn [L I dw X Z Y race pc V n fst snd Nat.eqb]; auto; try (intros; lia).
      * (* iLview: the new message *)
        intros Hr m Hm Hx. apply in_app_or in Hm as [Hm|[Hm|[]]]; [apply hLview; assumption|].
        subst m. rewrite Hr. cbn [lview].
        destruct xacq; cbn [vjoin vd vi vl]; lia.
  - (* index store *)
    specialize (hXmid eq_refl). cbn [Nat.eqb] in hXdw. specialize (hXv ltac:(lia)).
    constructor; cbn [L I dw X Z Y race pc V n vd vi vl Nat.eqb]; auto; try (intros; lia).
    + (* iLdead *) intros m Hm Hx. specialize (hLdead m Hm Hx). lia.
    + (* iI *) rewrite map_app, hI. cbn [map ival]. rewrite (seq_S (S (n (X c))) 0). reflexivity.
  - constructor; rewrite ?Epc; auto.
Qed.

Lemma inv_stepZ c : Inv c -> Inv (stepZ c).
Proof.
  intros H.
  destruct H as [hLdead hLview hXpc hXn hXmid hXend hXdw hXv hI hYdead hYview hYrace hYidx]. unfold stepZ.
  destruct (pc (Z c)) as [|p] eqn:Epc; [|constructor; rewrite ?Epc; auto].
  constructor; unfold rmw; cbn [L I dw X Z Y race pc V n fst snd]; auto.
  - (* iLdead: Z's message repeats X's bit *)
    intros m Hm Hx. apply in_app_or in Hm as [Hm|[<-|[]]]; [apply (hLdead m); assumption|].
    exact (hLdead _ (last_dead _ Hx) Hx).
  - (* iLview: and the view of the message read, whatever Z's orderings *)
    intros Hr m Hm Hx. apply in_app_or in Hm as [Hm|[<-|[]]]; [apply hLview; assumption|].
    apply vjoin_knows_l, (hLview Hr _ (last_dead _ Hx) Hx).
Qed.

Lemma inv_stepY j c : Inv c -> Inv (stepY j c).
Proof.
  intros H. pose proof (length_I c H) as HlenI.
  destruct H as [hLdead hLview hXpc hXn hXmid hXend hXdw hXv hI hYdead hYview hYrace hYidx]. unfold stepY.
  destruct (pc (Y c)) as [|[|[|p]]] eqn:Epc.
  - (* load of the liveness word *)
    set (i := pick (vl (V (Y c))) (length (L c)) j).
    destruct (lx (nth i (L c) dL)) eqn:Ex.
    + constructor; cbn [L I dw X Z Y race pc V n]; auto; intros; lia.
    + pose proof (nth_dead _ _ Ex) as Hin.
      constructor; cbn [L I dw X Z Y race pc V n]; auto; try (intros; lia).
      * (* iYdead *) intros _. apply (hLdead _ Hin Ex).
      * (* iYview *) intros Ha Hr _. rewrite Ha. apply vjoin_knows_r, (hLview Hr _ Hin Ex).
  - (* data read *)
    constructor; cbn [L I dw X Z Y race pc V n]; auto; try (intros; lia).
    + (* iYrace *) intros Ha Hr. rewrite (hYrace Ha Hr). cbn [orb].
      destruct (hYview Ha Hr ltac:(lia)) as [Hd _].
      specialize (hYdead ltac:(lia)). specialize (hXend hYdead). rewrite hYdead in hXdw. cbn [Nat.eqb] in hXdw.
      replace (dw c <=? vd (V (Y c))) with true; [reflexivity|]. symmetry. apply Nat.leb_le. lia.
  - (* index load: Y's view has reached X's last index message, so that one is read *)
    assert (Hk : acq = true -> rel = true -> k <= vd (V (Y c)) /\ pick (vi (V (Y c))) (length (I c)) j = k).
    { intros Ha Hr. destruct (hYview Ha Hr) as [Hd Hi]; [lia|]. split; [exact Hd|].
      rewrite pick_last; rewrite HlenI, (hXend (hYdead ltac:(lia))); [apply Nat.sub_0_r | lia]. }
    constructor; cbn [L I dw X Z Y race pc V n]; auto; try (intros; lia).
    + (* iYview *) intros Ha Hr _. destruct (Hk Ha Hr) as [Hd ->]. apply vjoin_knows_l. split; [exact Hd | apply le_n].
    + (* iYidx *) intros Ha Hr _. destruct (Hk Ha Hr) as [_ ->].
      rewrite <- (map_nth ival), hI, (hXend (hYdead ltac:(lia))). rewrite seq_nth by lia. reflexivity.
  - constructor; rewrite ?Epc; auto.
Qed.

Lemma inv_exec script : Inv (exec script).
Proof.
  unfold exec. generalize inv_init. generalize init.
  induction script as [|[t j] r IH]; intros c Hc; cbn [fold_left]; [exact Hc|].
  apply IH. unfold step. cbn [fst snd]. destruct t; [apply inv_stepX | apply inv_stepZ | apply inv_stepY]; exact Hc.
Qed.

(** (a) whatever the orderings: the flag reads false only after the drop - and then X's history is complete:
    all k data writes are done and the index word's history is exactly the values 0..k *)
Theorem dead_only_after_drop script :
  let c := exec script in
  saw_dead c -> dropped c /\ dw c = k /\ map ival (I c) = seq 0 (S k).
Proof.
  intros c Hs. pose proof (inv_exec script) as H. fold c in H.
  destruct H as [hLdead hLview hXpc hXn hXmid hXend hXdw hXv hI hYdead hYview hYrace hYidx].
  unfold saw_dead, dropped in *. specialize (hYdead Hs). specialize (hXend hYdead).
  split; [exact hYdead|]. split.
  - rewrite hXdw, hYdead. cbn [Nat.eqb]. lia.
  - rewrite hI, hXend. reflexivity.
Qed.

(** (b) Acquire load, Release RMW: no race in any execution; once Y has observed X dead its view contains every
    data write of X and the last message of X's index word; the value it loads from the index word is X's final one *)
Theorem dead_implies_published_visible script :
  acq = true -> rel = true ->
  let c := exec script in
  race c = false /\
  (saw_dead c -> dw c <= vd (V (Y c)) /\ length (I c) - 1 <= vi (V (Y c))) /\
  (idx_read c -> n (Y c) = k /\ n (Y c) = ival (last (I c) dI)).
Proof.
  intros Ha Hr c. pose proof (inv_exec script) as H. fold c in H.
  pose proof (length_I c H) as HlenI.
  destruct H as [hLdead hLview hXpc hXn hXmid hXend hXdw hXv hI hYdead hYview hYrace hYidx]. unfold saw_dead, idx_read.
  split; [auto|]. split.
  - intros Hs. destruct (hYview Ha Hr Hs) as [Hd Hi].
    specialize (hYdead Hs). specialize (hXend hYdead). rewrite hYdead in hXdw. cbn [Nat.eqb] in hXdw. lia.
  - intros Hp. specialize (hYidx Ha Hr Hp). split; [exact hYidx|].
    specialize (hYdead ltac:(lia)). specialize (hXend hYdead).
    rewrite hYidx, last_ival, hI, hXend, seq_S, last_last. reflexivity.
Qed.
End M.

Print Assumptions dead_only_after_drop.
Print Assumptions dead_implies_published_visible.

(** (c) the orderings are necessary and the detector is not vacuous.  Two publications; X runs to completion
    (data, index, data, index, fetch_and); Y loads the liveness word and reads X's message (bit clear), reads the
    data, loads the index word choosing the oldest message it is allowed to read.
    Result = (race, pc of Y, index value read, Y's view). *)
Definition xall : list (tid * nat) := [(TX, 0); (TX, 0); (TX, 0); (TX, 0); (TX, 0)].
Definition obs (c : cfg) := (race c, pc (Y c), n (Y c), vd (V (Y c))).

Example acqrel_sees_everything :
  obs (exec 2 true true true true true (xall ++ [(TY, 1); (TY, 0); (TY, 0)])) = (false, 3, 2, 2).
Proof. vm_compute. reflexivity. Qed.

(** Relaxed load of the liveness word: Y sees the bit clear but learns nothing: data race, stale index 0 *)
Example relaxed_load_is_bad :
  obs (exec 2 false true true true true (xall ++ [(TY, 1); (TY, 0); (TY, 0)])) = (true, 3, 0, 0).
Proof. vm_compute. reflexivity. Qed.

(** fetch_and without Release (Acquire only): the message carries nothing of X: data race, stale index 0 *)
Example nonrelease_rmw_is_bad :
  obs (exec 2 true false true true true (xall ++ [(TY, 1); (TY, 0); (TY, 0)])) = (true, 3, 0, 0).
Proof. vm_compute. reflexivity. Qed.

(** Release sequence: Z's RMW - fully relaxed here - lands after X's; Y reads Z's message (position 2) and still
    synchronises with X.  With a non-Release X the same schedule is bad. *)
Example through_relaxed_rmw_of_Z :
  obs (exec 2 true true true false false (xall ++ [(TZ, 0); (TY, 2); (TY, 0); (TY, 0)])) = (false, 3, 2, 2).
Proof. vm_compute. reflexivity. Qed.
Example through_Z_nonrelease_X_is_bad :
  obs (exec 2 true false true true true (xall ++ [(TZ, 0); (TY, 2); (TY, 0); (TY, 0)])) = (true, 3, 0, 0).
Proof. vm_compute. reflexivity. Qed.

(** stale reads are really allowed: after X's drop Y may still read the initial message and see X alive;
    and Z dropping first does not make X look dead *)
Example stale_alive : pc (Y (exec 2 true true true true true (xall ++ [(TY, 0)]))) = 0.
Proof. vm_compute. reflexivity. Qed.
Example Z_first_X_alive : pc (Y (exec 2 true true true true true [(TZ, 0); (TX, 0); (TY, 1)])) = 0.
Proof. vm_compute. reflexivity. Qed.
