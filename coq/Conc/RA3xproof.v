(** * Race freedom of the three-stage release/acquire machine RA3x.v.

    The invariant [Inv3x], with the "frontier" [pos + off] of a thread:
    - a recorded slot access of a thread sits at a position strictly below its frontier;
    - [ca] is bounded by the MESSAGE the thread saw of the index it follows, i.e. by a published position;
    - W and C have a fourth resting state, pc 5, between the load and the store of a reset, where
      [pos <= npos <= seen].  "Not backwards" comes from the view rule: the message read is at or after the
      thread's view, everything the thread was ever granted lies at or below the message AT its view, and
      message lists are sorted by position;
    - the PUBLISHED position of W / C is <= its LOCAL position, equal while attached.  The watermark of a W / C
      message is its own (published) position, and later accesses of that thread are at positions >= its local
      position at that time, so old views stay valid ([grows3x]) whether or not a later advance is published.
    A worker reset skips items: what the slot argument uses is not "W edited position q before C reads it" but
    that the last WRITE of the slot (by P or by W) is at a position <= q, below the watermarks C acquired
    (views keep [wC <= wW <= wP]). *)
Require Import MRB.Conc.RA MRB.Conc.RA3 MRB.Conc.RA3proof MRB.Conc.RA3x.
From Coq Require Import List Arith Lia Bool.
Import ListNotations.

Local Arguments Nat.max : simpl never.

Section Inv3x.
Variable len : nat.

Definition mtx3 (c : cfg3x) (k : nat) : meta3 := nth k (metas3 c) dmeta3.

Definition view_ok3x (c : cfg3x) (v : view3) : Prop :=
  vpi3 v < length (Mpi3 c) /\ vwi3 v < length (Mwi3 c) /\ vci3 v < length (Mci3 c) /\
  wP3 v <= pos3 (P3 c) /\ wW3 v <= pos3 (W3 c) /\ wC3 v <= pos3 (C3 c) /\
  mabs3 (nth (vpi3 v) (Mpi3 c) dmsg3) <= wP3 v /\
  mabs3 (nth (vwi3 v) (Mwi3 c) dmsg3) <= wW3 v /\
  mabs3 (nth (vci3 v) (Mci3 c) dmsg3) <= wC3 v /\
  wC3 v <= wW3 v /\ wW3 v <= wP3 v /\ wP3 v + 1 <= wC3 v + len /\
  (forall k, k < len -> wcover (mtx3 c k) v) /\
  (forall k, k < len -> rpos3 (mtx3 c k) < wC3 v -> rclk3 (mtx3 c k) <= kc3 v).

Definition msg_ok3x (c : cfg3x) (m : msg3) : Prop :=
  mval3 m = mabs3 m mod len /\ view_ok3x c (mview3 m).

Definition seenP3x (c : cfg3x) := mabs3 (nth (vci3 (V3 (P3 c))) (Mci3 c) dmsg3).
Definition seenW3x (c : cfg3x) := mabs3 (nth (vpi3 (V3 (W3 c))) (Mpi3 c) dmsg3).
Definition seenC3x (c : cfg3x) := mabs3 (nth (vwi3 (V3 (C3 c))) (Mwi3 c) dmsg3).

Definition pc_okx (t : thr3x) : Prop :=
  (pc3 t = 0 /\ off3 t = 0) \/
  (pc3 t = 2 /\ off3 t < cnt3 t /\ cnt3 t <= ca3 t) \/
  (pc3 t = 3 /\ off3 t = cnt3 t /\ cnt3 t <= ca3 t).

Definition pc_okr (t : thr3x) (seen : nat) : Prop :=
  pc_okx t \/
  (pc3 t = 5 /\ off3 t = 0 /\ pos3 t <= npos3 t /\ npos3 t <= seen /\ nix3 t = npos3 t mod len).

Definition slot_okx (c : cfg3x) (k : nat) : Prop :=
  wpos3 (mtx3 c k) mod len = k /\ rpos3 (mtx3 c k) mod len = k /\
  (wt (mtx3 c k) = TP ->
     wpos3 (mtx3 c k) < pos3 (P3 c) + off3 (P3 c) /\ wclk3 (mtx3 c k) <= kp3 (V3 (P3 c))) /\
  (wt (mtx3 c k) = TW ->
     wpos3 (mtx3 c k) < pos3 (W3 c) + off3 (W3 c) /\ wclk3 (mtx3 c k) <= kw3 (V3 (W3 c))) /\
  rpos3 (mtx3 c k) < pos3 (C3 c) + off3 (C3 c) /\ rclk3 (mtx3 c k) <= kc3 (V3 (C3 c)).

Record Inv3x (c : cfg3x) : Prop := mkInv3x {
  x_metas : length (metas3 c) = len;
  x_npi : 0 < length (Mpi3 c); x_nwi : 0 < length (Mwi3 c); x_nci : 0 < length (Mci3 c);
  x_spi : sorted3 (Mpi3 c); x_swi : sorted3 (Mwi3 c); x_sci : sorted3 (Mci3 c);
  x_lpi : lastabs3 (Mpi3 c) = pos3 (P3 c);
  x_lwi : lastabs3 (Mwi3 c) <= pos3 (W3 c);
  x_lci : lastabs3 (Mci3 c) <= pos3 (C3 c);
  x_attW : det3 (W3 c) = false -> lastabs3 (Mwi3 c) = pos3 (W3 c);
  x_attC : det3 (C3 c) = false -> lastabs3 (Mci3 c) = pos3 (C3 c);
  x_mpi : Forall (msg_ok3x c) (Mpi3 c);
  x_mwi : Forall (msg_ok3x c) (Mwi3 c);
  x_mci : Forall (msg_ok3x c) (Mci3 c);
  x_wpi : forall i, i < length (Mpi3 c) -> mabs3 (nth i (Mpi3 c) dmsg3) <= wP3 (mview3 (nth i (Mpi3 c) dmsg3));
  x_wwi : forall i, i < length (Mwi3 c) -> mabs3 (nth i (Mwi3 c) dmsg3) <= wW3 (mview3 (nth i (Mwi3 c) dmsg3));
  x_wci : forall i, i < length (Mci3 c) -> mabs3 (nth i (Mci3 c) dmsg3) <= wC3 (mview3 (nth i (Mci3 c) dmsg3));
  x_vP : view_ok3x c (V3 (P3 c));
  x_vW : view_ok3x c (V3 (W3 c));
  x_vC : view_ok3x c (V3 (C3 c));
  x_ixP : ix3 (P3 c) = pos3 (P3 c) mod len;
  x_ixW : ix3 (W3 c) = pos3 (W3 c) mod len;
  x_ixC : ix3 (C3 c) = pos3 (C3 c) mod len;
  x_caP : ca3 (P3 c) + pos3 (P3 c) + 1 <= seenP3x c + len;
  x_caW : ca3 (W3 c) + pos3 (W3 c) <= seenW3x c;
  x_caC : ca3 (C3 c) + pos3 (C3 c) <= seenC3x c;
  x_pcP : pc_okx (P3 c);
  x_pcW : pc_okr (W3 c) (seenW3x c);
  x_pcC : pc_okr (C3 c) (seenC3x c);
  x_slot : forall k, k < len -> slot_okx c k;
  x_race : race3 c = false
}.

Definition grows3x (c c' : cfg3x) : Prop :=
  (exists xs, Mpi3 c' = Mpi3 c ++ xs) /\ (exists xs, Mwi3 c' = Mwi3 c ++ xs) /\ (exists xs, Mci3 c' = Mci3 c ++ xs) /\
  pos3 (P3 c) <= pos3 (P3 c') /\ pos3 (W3 c) <= pos3 (W3 c') /\ pos3 (C3 c) <= pos3 (C3 c') /\
  (forall k, k < len ->
     mtx3 c' k = mtx3 c k \/
     (wt (mtx3 c' k) = TP /\ pos3 (P3 c) <= wpos3 (mtx3 c' k) /\
      rpos3 (mtx3 c' k) = rpos3 (mtx3 c k) /\ rclk3 (mtx3 c' k) = rclk3 (mtx3 c k)) \/
     (wt (mtx3 c' k) = TW /\ pos3 (W3 c) <= wpos3 (mtx3 c' k) /\
      rpos3 (mtx3 c' k) = rpos3 (mtx3 c k) /\ rclk3 (mtx3 c' k) = rclk3 (mtx3 c k)) \/
     (pos3 (C3 c) <= rpos3 (mtx3 c' k) /\ wt (mtx3 c' k) = wt (mtx3 c k) /\
      wpos3 (mtx3 c' k) = wpos3 (mtx3 c k) /\ wclk3 (mtx3 c' k) = wclk3 (mtx3 c k))).

Lemma ext_refl (M : list msg3) : exists xs, M = M ++ xs.
Proof. exists []. symmetry. apply app_nil_r. Qed.
Lemma ext_snoc (M : list msg3) x : exists xs, M ++ [x] = M ++ xs.
Proof. exists [x]. reflexivity. Qed.

Lemma grows3x_msgs c c' :
  (exists xs, Mpi3 c' = Mpi3 c ++ xs) -> (exists xs, Mwi3 c' = Mwi3 c ++ xs) -> (exists xs, Mci3 c' = Mci3 c ++ xs) ->
  pos3 (P3 c) <= pos3 (P3 c') -> pos3 (W3 c) <= pos3 (W3 c') -> pos3 (C3 c) <= pos3 (C3 c') ->
  metas3 c' = metas3 c -> grows3x c c'.
Proof.
  intros Hp Hw Hc Pp Pw Pc Hm. unfold grows3x, mtx3. rewrite Hm. splits; try assumption.
  intros k _. left. reflexivity.
Qed.

Lemma grows3x_slot c c' k0 m :
  Mpi3 c' = Mpi3 c -> Mwi3 c' = Mwi3 c -> Mci3 c' = Mci3 c ->
  pos3 (P3 c') = pos3 (P3 c) -> pos3 (W3 c') = pos3 (W3 c) -> pos3 (C3 c') = pos3 (C3 c) ->
  metas3 c' = upd k0 m (metas3 c) -> k0 < length (metas3 c) ->
  (wt m = TP /\ pos3 (P3 c) <= wpos3 m /\ rpos3 m = rpos3 (mtx3 c k0) /\ rclk3 m = rclk3 (mtx3 c k0)) \/
  (wt m = TW /\ pos3 (W3 c) <= wpos3 m /\ rpos3 m = rpos3 (mtx3 c k0) /\ rclk3 m = rclk3 (mtx3 c k0)) \/
  (pos3 (C3 c) <= rpos3 m /\ wt m = wt (mtx3 c k0) /\ wpos3 m = wpos3 (mtx3 c k0) /\ wclk3 m = wclk3 (mtx3 c k0)) ->
  grows3x c c'.
Proof.
  intros Hp Hw Hc Pp Pw Pc Hm Hk0 Hm'. unfold grows3x. rewrite Hp, Hw, Hc, Pp, Pw, Pc.
  splits; try apply ext_refl; try apply Nat.le_refl.
  intros k _. destruct (Nat.eq_dec k0 k) as [<-|Hne].
  - assert (E : mtx3 c' k0 = m) by (unfold mtx3; rewrite Hm; apply nth_upd_eq; exact Hk0).
    right. rewrite E. exact Hm'.
  - left. unfold mtx3. rewrite Hm. apply nth_upd_neq. exact Hne.
Qed.

Lemma view_ok3x_grows c c' v : grows3x c c' -> view_ok3x c v -> view_ok3x c' v.
Proof.
  intros (Hpi & Hwi & Hci & HpP & HpW & HpC & Hm) (H1&H2&H3&H4&H5&H6&H7&H8&H9&H10&H11&H12&H13&H14).
  destruct Hpi as [xs Hpi]. destruct Hwi as [ys Hwi]. destruct Hci as [zs Hci].
  unfold view_ok3x. rewrite Hpi, Hwi, Hci, !app_length, !app_nth1 by assumption.
  splits; try assumption; try (apply Nat.lt_lt_add_r; assumption).
  - exact (Nat.le_trans _ _ _ H4 HpP).
  - exact (Nat.le_trans _ _ _ H5 HpW).
  - exact (Nat.le_trans _ _ _ H6 HpC).
  - intros k Hk. specialize (H13 k Hk). unfold wcover in *.
    destruct (Hm k Hk) as [E|[(E0&E1&E2&E3)|[(E0&E1&E2&E3)|(E1&E0&E2&E3)]]].
    + rewrite E; exact H13.
    + rewrite E0. intros Hw; lia.
    + rewrite E0. intros Hw; lia.
    + rewrite E0, E2, E3. exact H13.
  - intros k Hk Hw. specialize (H14 k Hk).
    destruct (Hm k Hk) as [E|[(E0&E1&E2&E3)|[(E0&E1&E2&E3)|(E1&E0&E2&E3)]]].
    + rewrite E in *; auto.
    + rewrite E2, E3 in *; auto.
    + rewrite E2, E3 in *; auto.
    + lia.
Qed.

Lemma grows_views c c' : Inv3x c -> grows3x c c' ->
  Forall (msg_ok3x c') (Mpi3 c) /\ Forall (msg_ok3x c') (Mwi3 c) /\ Forall (msg_ok3x c') (Mci3 c) /\
  view_ok3x c' (V3 (P3 c)) /\ view_ok3x c' (V3 (W3 c)) /\ view_ok3x c' (V3 (C3 c)).
Proof.
  intros I G.
  assert (F : forall M, Forall (msg_ok3x c) M -> Forall (msg_ok3x c') M).
  { intros M. apply Forall_impl. intros m [A B]. split; [exact A | exact (view_ok3x_grows c c' _ G B)]. }
  splits; [apply F; apply I .. | | |]; apply (view_ok3x_grows c c' _ G); apply I.
Qed.

Definition keeps (c c' : cfg3x) : Prop := Inv3x c' /\ grows3x c c'.

Lemma keeps_refl c : Inv3x c -> keeps c c.
Proof.
  intros I. split; [exact I|].
  apply grows3x_msgs; try apply ext_refl; try apply Nat.le_refl; reflexivity.
Qed.
Lemma view_ok3x_acq c v mv a b c0 :
  view_ok3x c v -> view_ok3x c mv ->
  a < length (Mpi3 c) -> b < length (Mwi3 c) -> c0 < length (Mci3 c) ->
  mabs3 (nth a (Mpi3 c) dmsg3) <= Nat.max (wP3 v) (wP3 mv) ->
  mabs3 (nth b (Mwi3 c) dmsg3) <= Nat.max (wW3 v) (wW3 mv) ->
  mabs3 (nth c0 (Mci3 c) dmsg3) <= Nat.max (wC3 v) (wC3 mv) ->
  view_ok3x c (vjoin3 (mkV3 a b c0 (kp3 v) (kw3 v) (kc3 v) (wP3 v) (wW3 v) (wC3 v)) mv).
Proof.
  intros (_&_&_&A4&A5&A6&_&_&_&A10&A11&A12&A13&A14) (B1&B2&B3&B4&B5&B6&B7&B8&B9&B10&B11&B12&B13&B14)
         Ha Hb Hc Ma Mb Mc.
  unfold view_ok3x, vjoin3; cbn.
  splits; try (apply Nat.max_lub_lt; assumption); try (apply Nat.max_lub; assumption);
    try (apply Nat.max_le_compat; assumption).
  - destruct (Nat.max_spec a (vpi3 mv)) as [[_ ->]|[_ ->]]; [|exact Ma].
    exact (Nat.le_trans _ _ _ B7 (Nat.le_max_r _ _)).
  - destruct (Nat.max_spec b (vwi3 mv)) as [[_ ->]|[_ ->]]; [|exact Mb].
    exact (Nat.le_trans _ _ _ B8 (Nat.le_max_r _ _)).
  - destruct (Nat.max_spec c0 (vci3 mv)) as [[_ ->]|[_ ->]]; [|exact Mc].
    exact (Nat.le_trans _ _ _ B9 (Nat.le_max_r _ _)).
  - rewrite <- !Nat.add_max_distr_r. apply Nat.max_le_compat; assumption.
  - intros k Hk. specialize (A13 k Hk). specialize (B13 k Hk). unfold wcover in *; cbn.
    destruct (wt (mtx3 c k)); [| |trivial]; intros Hw; apply Nat.max_lt_iff in Hw; apply Nat.max_le_iff;
      (destruct Hw as [Hw|Hw]; [left; exact (A13 Hw) | right; exact (B13 Hw)]).
  - intros k Hk Hw. apply Nat.max_lt_iff in Hw. apply Nat.max_le_iff.
    destruct Hw as [Hw|Hw]; [left; exact (A14 k Hk Hw) | right; exact (B14 k Hk Hw)].
Qed.

Lemma view_idx c v : view_ok3x c v ->
  vpi3 v < length (Mpi3 c) /\ vwi3 v < length (Mwi3 c) /\ vci3 v < length (Mci3 c).
Proof. unfold view_ok3x. tauto. Qed.
Lemma view_pos c v : view_ok3x c v -> wP3 v <= pos3 (P3 c) /\ wW3 v <= pos3 (W3 c) /\ wC3 v <= pos3 (C3 c).
Proof. unfold view_ok3x. tauto. Qed.
Lemma view_msg c v : view_ok3x c v ->
  mabs3 (nth (vpi3 v) (Mpi3 c) dmsg3) <= wP3 v /\ mabs3 (nth (vwi3 v) (Mwi3 c) dmsg3) <= wW3 v /\
  mabs3 (nth (vci3 v) (Mci3 c) dmsg3) <= wC3 v.
Proof. unfold view_ok3x. tauto. Qed.
Lemma view_chain c v : view_ok3x c v -> wC3 v <= wW3 v /\ wW3 v <= wP3 v /\ wP3 v + 1 <= wC3 v + len.
Proof. unfold view_ok3x. tauto. Qed.
Lemma view_wcover c v : view_ok3x c v -> forall k, k < len -> wcover (mtx3 c k) v.
Proof. intros V. apply V. Qed.
Lemma view_rcover c v : view_ok3x c v ->
  forall k, k < len -> rpos3 (mtx3 c k) < wC3 v -> rclk3 (mtx3 c k) <= kc3 v.
Proof. intros V. apply V. Qed.

Lemma off_le_ca_x t : pc_okx t -> off3 t <= ca3 t.
Proof.
  intros [[_ ->]|[(_&X&Y)|(_&->&Y)]];
    [apply Nat.le_0_l | exact (Nat.le_trans _ _ _ (Nat.lt_le_incl _ _ X) Y) | exact Y].
Qed.
Lemma off_le_ca_r t s : pc_okr t s -> off3 t <= ca3 t.
Proof. intros [H|(_&->&_)]; [exact (off_le_ca_x t H) | apply Nat.le_0_l]. Qed.

(* the message a thread saw of the index it follows is not after the last one *)
Lemma behind3x c : Inv3x c ->
  ca3 (C3 c) + pos3 (C3 c) <= lastabs3 (Mwi3 c) /\ ca3 (W3 c) + pos3 (W3 c) <= pos3 (P3 c) /\
  ca3 (P3 c) + pos3 (P3 c) + 1 <= lastabs3 (Mci3 c) + len.
Proof.
  intros I.
  pose proof (sorted3_last _ _ (x_swi c I) (proj1 (proj2 (view_idx c _ (x_vC c I))))) as HC.
  pose proof (sorted3_last _ _ (x_spi c I) (proj1 (view_idx c _ (x_vW c I)))) as HW.
  pose proof (sorted3_last _ _ (x_sci c I) (proj2 (proj2 (view_idx c _ (x_vP c I))))) as HP.
  rewrite (x_lpi c I) in HW.
  pose proof (x_caC c I). pose proof (x_caW c I). pose proof (x_caP c I).
  unfold seenP3x, seenW3x, seenC3x in *. lia.
Qed.

Lemma stages3x c : Inv3x c ->
  pos3 (C3 c) <= pos3 (W3 c) /\ pos3 (W3 c) <= pos3 (P3 c) /\ pos3 (P3 c) + 1 <= pos3 (C3 c) + len.
Proof. intros I. pose proof (behind3x c I). pose proof (x_lwi c I). pose proof (x_lci c I). lia. Qed.

Lemma frontier3x c : Inv3x c ->
  pos3 (C3 c) + off3 (C3 c) <= lastabs3 (Mwi3 c) /\ pos3 (W3 c) + off3 (W3 c) <= pos3 (P3 c) /\
  pos3 (P3 c) + off3 (P3 c) + 1 <= lastabs3 (Mci3 c) + len.
Proof.
  intros I. pose proof (behind3x c I). pose proof (off_le_ca_x _ (x_pcP c I)).
  pose proof (off_le_ca_r _ _ (x_pcW c I)). pose proof (off_le_ca_r _ _ (x_pcC c I)). lia.
Qed.

Lemma cap3x c : Inv3x c -> ca3 (P3 c) + 1 <= len /\ ca3 (W3 c) + 1 <= len /\ ca3 (C3 c) + 1 <= len.
Proof. intros I. pose proof (behind3x c I). pose proof (stages3x c I). pose proof (x_lwi c I). pose proof (x_lci c I). lia. Qed.

Lemma slot_okx_pcP c k t' : slot_okx c k ->
  pos3 (P3 c) + off3 (P3 c) <= pos3 t' + off3 t' -> kp3 (V3 (P3 c)) <= kp3 (V3 t') ->
  slot_okx (mkC3x (Mpi3 c) (Mwi3 c) (Mci3 c) (metas3 c) t' (W3 c) (C3 c) (race3 c)) k.
Proof.
  unfold slot_okx, mtx3; simpl. intros (S1&S2&S3&S4&S5&S6) Hpos Hk.
  splits; auto. intros E. destruct (S3 E) as (T1&T2). split; lia.
Qed.
Lemma slot_okx_pcW c k t' : slot_okx c k ->
  pos3 (W3 c) + off3 (W3 c) <= pos3 t' + off3 t' -> kw3 (V3 (W3 c)) <= kw3 (V3 t') ->
  slot_okx (mkC3x (Mpi3 c) (Mwi3 c) (Mci3 c) (metas3 c) (P3 c) t' (C3 c) (race3 c)) k.
Proof.
  unfold slot_okx, mtx3; simpl. intros (S1&S2&S3&S4&S5&S6) Hpos Hk.
  splits; auto. intros E. destruct (S4 E) as (T1&T2). split; lia.
Qed.
Lemma slot_okx_pcC c k t' : slot_okx c k ->
  pos3 (C3 c) + off3 (C3 c) <= pos3 t' + off3 t' -> kc3 (V3 (C3 c)) <= kc3 (V3 t') ->
  slot_okx (mkC3x (Mpi3 c) (Mwi3 c) (Mci3 c) (metas3 c) (P3 c) (W3 c) t' (race3 c)) k.
Proof.
  unfold slot_okx, mtx3; simpl. intros (S1&S2&S3&S4&S5&S6) Hpos Hk.
  splits; auto; lia.
Qed.

Lemma view_ok3x_clock c v kp kw kc : view_ok3x c v -> kp3 v <= kp -> kw3 v <= kw -> kc3 v <= kc ->
  view_ok3x c (mkV3 (vpi3 v) (vwi3 v) (vci3 v) kp kw kc (wP3 v) (wW3 v) (wC3 v)).
Proof.
  intros (A1&A2&A3&A4&A5&A6&A7&A8&A9&A10&A11&A12&A13&A14) Hp Hw Hc. unfold view_ok3x; cbn.
  splits; try assumption.
  - intros k Hk. specialize (A13 k Hk). unfold wcover in *; cbn.
    destruct (wt (mtx3 c k)); [| |trivial]; intros H; eapply Nat.le_trans; [exact (A13 H) | assumption | exact (A13 H) | assumption].
  - intros k Hk H. exact (Nat.le_trans _ _ _ (A14 k Hk H) Hc).
Qed.
Hypothesis Hlen : 0 < len.

(* Grant, load, the load of a reset and Detach change only the thread's own record: one lemma per thread. *)
Lemma setP_inv c t' : Inv3x c ->
  ix3 t' = ix3 (P3 c) -> pos3 t' = pos3 (P3 c) -> off3 (P3 c) <= off3 t' ->
  view_ok3x c (V3 t') -> kp3 (V3 (P3 c)) <= kp3 (V3 t') ->
  ca3 t' + pos3 t' + 1 <= mabs3 (nth (vci3 (V3 t')) (Mci3 c) dmsg3) + len -> pc_okx t' ->
  keeps c (mkC3x (Mpi3 c) (Mwi3 c) (Mci3 c) (metas3 c) t' (W3 c) (C3 c) (race3 c)).
Proof.
  intros I Hix Hpos Hoff Hv Hk Hca Hpc.
  set (c' := mkC3x _ _ _ _ _ _ _ _).
  assert (G : grows3x c c').
  { apply grows3x_msgs; cbn; try apply ext_refl; try apply Nat.le_refl; [rewrite Hpos; apply Nat.le_refl | reflexivity]. }
  destruct (grows_views c c' I G) as (Fp&Fw&Fc&_&Vw&Vc).
  split; [|exact G]. constructor; cbn; try assumption; try (destruct I; assumption).
  - rewrite Hpos. apply I.
  - exact (view_ok3x_grows c c' _ G Hv).
  - rewrite Hix, Hpos. apply I.
  - intros k Hk'. apply slot_okx_pcP; [apply I; exact Hk' | rewrite Hpos; apply Nat.add_le_mono_l; exact Hoff | exact Hk].
Qed.

Lemma P_fast_x c j n0 : Inv3x c -> pc3 (P3 c) = 0 -> Nat.max 1 n0 <= ca3 (P3 c) -> keeps c (opP3_a true len j n0 c).
Proof.
  intros I Hpc0 Hca.
  destruct (x_pcP c I) as [[_ Hoff]|[(X&_)|(X&_)]]; try congruence.
  unfold opP3_a. rewrite Hpc0. cbv beta iota zeta.
  rewrite (proj2 (Nat.leb_le _ _) Hca).
  apply setP_inv; unfold t_grant; cbn; try reflexivity; try apply I.
  - rewrite Hoff. apply Nat.le_refl.
  - right; left; cbn. split; [reflexivity | split; [lia | exact Hca]].
Qed.

Lemma P_acq c i :
  Inv3x c -> vci3 (V3 (P3 c)) <= i -> i < length (Mci3 c) ->
  let m := nth i (Mci3 c) dmsg3 in
  let v0 := V3 (P3 c) in
  let v1 := vjoin3 (mkV3 (vpi3 v0) (vwi3 v0) i (kp3 v0) (kw3 v0) (kc3 v0) (wP3 v0) (wW3 v0) (wC3 v0)) (mview3 m) in
  view_ok3x c v1 /\ mval3 m = mabs3 m mod len /\ seenP3x c <= mabs3 m /\ mabs3 m <= pos3 (C3 c) /\
  mabs3 m <= mabs3 (nth (vci3 v1) (Mci3 c) dmsg3) /\ kp3 v0 <= kp3 v1.
Proof.
  intros I Hi1 Hi2 m v0 v1.
  destruct (Forall_nth_msg3 _ _ i (x_mci c I) Hi2) as [Hmv Hmok]. fold m in Hmv, Hmok.
  pose proof (x_wci c I i Hi2) as Hmw. fold m in Hmw.
  pose proof (x_sci c I) as Hs.
  splits.
  - destruct (view_idx c _ (x_vP c I)) as (P1&P2&_). destruct (view_msg c _ (x_vP c I)) as (P7&P8&_).
    fold v0 in P1, P2, P7, P8.
    apply view_ok3x_acq; try assumption; [exact (x_vP c I) | ..].
    + exact (Nat.le_trans _ _ _ P7 (Nat.le_max_l _ _)).
    + exact (Nat.le_trans _ _ _ P8 (Nat.le_max_l _ _)).
    + exact (Nat.le_trans _ _ _ Hmw (Nat.le_max_r _ _)).
  - exact Hmv.
  - apply Hs; assumption.
  - apply Nat.le_trans with (lastabs3 (Mci3 c)); [apply sorted3_last; assumption | apply I].
  - apply Hs; [apply Nat.le_max_l | apply Nat.max_lub_lt; [exact Hi2 | apply Hmok]].
  - apply Nat.le_max_l.
Qed.

Lemma P_load_x c j n0 : Inv3x c -> pc3 (P3 c) = 0 -> ca3 (P3 c) < Nat.max 1 n0 -> keeps c (opP3_a true len j n0 c).
Proof.
  intros I Hpc0 Hca.
  destruct (x_pcP c I) as [[_ Hoff]|[(X&_)|(X&_)]]; try congruence.
  unfold opP3_a. rewrite Hpc0. cbv beta iota zeta.
  rewrite (proj2 (Nat.leb_gt _ _) Hca).
  destruct (view_idx c _ (x_vP c I)) as (_&_&P3').
  destruct (pick_bounds (vci3 (V3 (P3 c))) (length (Mci3 c)) j P3') as [Hi1 Hi2].
  set (i := pick (vci3 (V3 (P3 c))) (length (Mci3 c)) j) in *. clearbody i.
  destruct (P_acq c i I Hi1 Hi2) as (Hv1 & Hmv & Hseen & HmC & Hmono & Hk).
  set (m := nth i (Mci3 c) dmsg3) in *. clearbody m.
  set (v1 := vjoin3 _ (mview3 m)) in *. clearbody v1.
  pose proof (stages3x c I) as Hst.
  pose proof (x_caP c I) as HcaP. unfold seenP3x in *.
  assert (Ha : pavail len (ix3 (P3 c)) (mval3 m) = len - 1 - (pos3 (P3 c) - mabs3 m)).
  { rewrite (x_ixP c I), Hmv. apply pavail_mod; lia. }
  apply setP_inv; unfold t_load; cbn; try reflexivity; try assumption.
  - rewrite Hoff. apply Nat.le_refl.
  - rewrite Ha. lia.
  - unfold pc_okx; cbn. destruct (Nat.leb_spec (Nat.max 1 n0) (pavail len (ix3 (P3 c)) (mval3 m))); [right; left | left]; lia.
Qed.
Lemma P_write_x c j n0 : Inv3x c -> pc3 (P3 c) = 2 -> keeps c (opP3_a true len j n0 c).
Proof.
  intros I Hpc2.
  destruct (x_pcP c I) as [[X _]|[(_&Hoff&Hcnt)|(X&_)]]; try congruence.
  unfold opP3_a. rewrite Hpc2. cbv beta iota zeta. unfold t_slot.
  pose proof (stages3x c I) as Hst. pose proof (frontier3x c I) as Hfr. pose proof (cap3x c I) as Hcap.
  pose proof (x_vP c I) as V. pose proof (view_msg c _ V) as Vmsg. pose proof (view_chain c _ V) as Vch.
  pose proof (x_caP c I) as HcaP. unfold seenP3x in HcaP. pose proof (x_lwi c I) as Hlwi.
  assert (Hk0 : wadd len (ix3 (P3 c)) (off3 (P3 c)) = (pos3 (P3 c) + off3 (P3 c)) mod len)
    by (rewrite (x_ixP c I); apply wadd_mod; lia).
  set (k0 := wadd len (ix3 (P3 c)) (off3 (P3 c))) in *.
  set (q := pos3 (P3 c) + off3 (P3 c)) in *.
  assert (Hk : k0 < len) by (rewrite Hk0; apply Nat.mod_upper_bound; lia).
  destruct (x_slot c I _ Hk) as (S1&S2&S3&S4&S5&S6).
  fold (mtx3 c k0).
  assert (HseenP : q + 2 <= wC3 (V3 (P3 c)) + len) by lia.
  (* the consumer's last read of this slot is one lap (or more) below, and covered by the producer's view *)
  assert (Hr : rpos3 (mtx3 c k0) + len <= q).
  { apply (Ring.congr_le len); [exact Hlen | rewrite (Ring.mod_add_len len _ Hlen), S2, Hk0; reflexivity | lia]. }
  assert (Hcov : rclk3 (mtx3 c k0) <= kc3 (V3 (P3 c))) by (apply (view_rcover c _ V _ Hk); lia).
  (* the worker's last write of this slot (if the last writer is the worker) likewise *)
  assert (Hwc : wcov TP (mtx3 c k0) (V3 (P3 c)) = true).
  { unfold wcov. destruct (wt (mtx3 c k0)) eqn:Ew; auto.
    destruct (S4 eq_refl) as (T1&T2).
    assert (Hw : wpos3 (mtx3 c k0) + len <= q).
    { apply (Ring.congr_le len); [exact Hlen | rewrite (Ring.mod_add_len len _ Hlen), S1, Hk0; reflexivity | lia]. }
    apply Nat.leb_le. pose proof (view_wcover c _ V _ Hk) as P13. unfold wcover in P13. rewrite Ew in P13.
    apply P13. lia. }
  rewrite Hwc, (proj2 (Nat.leb_le _ _) Hcov), orb_false_r.
  set (c' := mkC3x _ _ _ _ _ _ _ _).
  assert (Hmt0 : mtx3 c' k0 = mkMeta3 TP q (kp3 (V3 (P3 c))) (rpos3 (mtx3 c k0)) (rclk3 (mtx3 c k0)))
    by (unfold mtx3, c'; cbn; apply nth_upd_eq; rewrite (x_metas c I); exact Hk).
  assert (G : grows3x c c').
  { apply grows3x_slot with (k0 := k0) (m := mkMeta3 TP q (kp3 (V3 (P3 c))) (rpos3 (mtx3 c k0)) (rclk3 (mtx3 c k0)));
      try reflexivity; [rewrite (x_metas c I); exact Hk | left; cbn].
    splits; [reflexivity | apply Nat.le_add_r | reflexivity | reflexivity]. }
  destruct (grows_views c c' I G) as (Fp&Fw&Fc&Vp&Vw&Vc).
  split; [|exact G]. constructor; cbn; try assumption; try (destruct I; assumption).
  - rewrite upd_length; apply I.
  - unfold pc_okx; cbn.
    destruct (Nat.leb_spec (cnt3 (P3 c)) (off3 (P3 c) + 1)); [right; right | right; left]; lia.
  - intros k Hk'. unfold slot_okx. destruct (Nat.eq_dec k k0) as [->|Hne].
    + rewrite Hmt0; cbn. splits; auto; try lia; intros E; discriminate E.
    + replace (mtx3 c' k) with (mtx3 c k) by (symmetry; apply nth_upd_neq; auto).
      destruct (x_slot c I k Hk') as (T1&T2&T3&T4&T5&T6).
      cbn. splits; auto.
      intros E. destruct (T3 E) as (U1&U2). split; [lia|auto].
Qed.
Lemma P_store_x c j n0 : Inv3x c -> pc3 (P3 c) = 3 -> keeps c (opP3_a true len j n0 c).
Proof.
  intros I Hpc3.
  destruct (x_pcP c I) as [[X _]|[(X&_)|(_&Hoff&Hcnt)]]; try congruence.
  unfold opP3_a. rewrite Hpc3. cbv beta iota zeta. unfold t_end.
  pose proof (cap3x c I) as Hcap.
  pose proof (x_vP c I) as V. pose proof (view_idx c _ V) as Vidx. pose proof (view_pos c _ V) as Vpos.
  pose proof (view_msg c _ V) as Vmsg. pose proof (view_chain c _ V) as Vch.
  pose proof (x_caP c I) as HcaP. unfold seenP3x in HcaP.
  assert (Hix' : wadd len (ix3 (P3 c)) (cnt3 (P3 c)) = (pos3 (P3 c) + cnt3 (P3 c)) mod len)
    by (rewrite (x_ixP c I); apply wadd_mod; lia).
  set (p' := pos3 (P3 c) + cnt3 (P3 c)) in *.
  set (v1 := mkV3 (length (Mpi3 c)) _ _ _ _ _ p' _ _).
  set (m := mkM3 _ _ v1).
  set (c' := mkC3x _ _ _ _ _ _ _ _).
  assert (G : grows3x c c').
  { apply grows3x_msgs; cbn; try apply ext_refl; try apply Nat.le_refl;
      [apply ext_snoc | apply Nat.le_add_r | reflexivity]. }
  destruct (grows_views c c' I G) as (Fp&Fw&Fc&_&Vw&Vc).
  assert (Hnth : forall i, i < length (Mpi3 c) -> nth i (Mpi3 c ++ [m]) dmsg3 = nth i (Mpi3 c) dmsg3)
    by (intros; apply nth_app_l; assumption).
  assert (HseenP : p' + 1 <= wC3 (V3 (P3 c)) + len) by lia.
  assert (HsW : seenW3x c' = seenW3x c).
  { unfold seenW3x, c'; cbn. rewrite Hnth; [reflexivity | apply (x_vW c I)]. }
  assert (Hv1 : view_ok3x c' v1).
  { unfold view_ok3x, v1, c'; cbn. rewrite app_length, nth_app_last; cbn.
    splits; try apply Nat.le_refl; try lia; [|exact (view_rcover c _ V)].
    intros k Hk. unfold wcover. destruct (x_slot c I k Hk) as (_&_&S3&_).
    pose proof (view_wcover c _ V k Hk) as P13. unfold wcover in P13. unfold mtx3 in *; cbn.
    destruct (wt (nth k (metas3 c) dmeta3)) eqn:Ew; auto.
    intros _. apply (S3 eq_refl). }
  split; [|exact G]. constructor; cbn; try assumption; try (destruct I; assumption).
  - rewrite app_length; cbn; lia.
  - apply sorted3_app; [apply I |]. rewrite (x_lpi c I). apply Nat.le_add_r.
  - apply lastabs3_app.
  - apply Forall_app1; [exact Fp | split; [exact Hix' | exact Hv1]].
  - intros i Hi. rewrite app_length in Hi; cbn in Hi.
    destruct (Nat.eq_dec i (length (Mpi3 c))) as [->|Hne].
    + rewrite nth_app_last. apply Nat.le_refl.
    + rewrite Hnth by lia. apply (x_wpi c I); lia.
  - apply (view_ok3x_clock c' v1); [exact Hv1 | apply Nat.le_succ_diag_r | apply Nat.le_refl ..].
  - unfold seenP3x; cbn. lia.
  - change (ca3 (W3 c) + pos3 (W3 c) <= seenW3x c'). rewrite HsW. apply I.
  - left; auto.
  - change (pc_okr (W3 c) (seenW3x c')). rewrite HsW. apply I.
  - intros k Hk. destruct (x_slot c I k Hk) as (S1&S2&S3&S4&S5&S6).
    unfold slot_okx, mtx3 in *; cbn. splits; auto.
    intros E. destruct (S3 E) as (U1&U2). split; lia.
Qed.
Lemma setW_inv c t' : Inv3x c ->
  ix3 t' = ix3 (W3 c) -> pos3 t' = pos3 (W3 c) -> off3 (W3 c) <= off3 t' ->
  (det3 t' = false -> det3 (W3 c) = false) ->
  view_ok3x c (V3 t') -> kw3 (V3 (W3 c)) <= kw3 (V3 t') ->
  ca3 t' + pos3 t' <= mabs3 (nth (vpi3 (V3 t')) (Mpi3 c) dmsg3) ->
  pc_okr t' (mabs3 (nth (vpi3 (V3 t')) (Mpi3 c) dmsg3)) ->
  keeps c (mkC3x (Mpi3 c) (Mwi3 c) (Mci3 c) (metas3 c) (P3 c) t' (C3 c) (race3 c)).
Proof.
  intros I Hix Hpos Hoff Hdet Hv Hk Hca Hpc.
  set (c' := mkC3x _ _ _ _ _ _ _ _).
  assert (G : grows3x c c').
  { apply grows3x_msgs; cbn; try apply ext_refl; try apply Nat.le_refl; [rewrite Hpos; apply Nat.le_refl | reflexivity]. }
  destruct (grows_views c c' I G) as (Fp&Fw&Fc&Vp&_&Vc).
  split; [|exact G]. constructor; cbn; try assumption; try (destruct I; assumption).
  - rewrite Hpos. apply I.
  - intros E. rewrite Hpos. apply I. exact (Hdet E).
  - exact (view_ok3x_grows c c' _ G Hv).
  - rewrite Hix, Hpos. apply I.
  - intros k Hk'. apply slot_okx_pcW; [apply I; exact Hk' | rewrite Hpos; apply Nat.add_le_mono_l; exact Hoff | exact Hk].
Qed.

Lemma W_fast_x c j n0 : Inv3x c -> pc3 (W3 c) = 0 -> Nat.max 1 n0 <= ca3 (W3 c) -> keeps c (opW3_a true len j n0 c).
Proof.
  intros I Hpc0 Hca.
  destruct (x_pcW c I) as [[[_ Hoff]|[(X&_)|(X&_)]]|(X&_)]; try congruence.
  unfold opW3_a. rewrite Hpc0. cbv beta iota zeta.
  rewrite (proj2 (Nat.leb_le _ _) Hca).
  apply setW_inv; unfold t_grant; cbn; try reflexivity; try apply I; auto.
  - rewrite Hoff. apply Nat.le_refl.
  - left; right; left; cbn. split; [reflexivity | split; [lia | exact Hca]].
Qed.

Lemma W_acq c i :
  Inv3x c -> vpi3 (V3 (W3 c)) <= i -> i < length (Mpi3 c) ->
  let m := nth i (Mpi3 c) dmsg3 in
  let v0 := V3 (W3 c) in
  let v1 := vjoin3 (mkV3 i (vwi3 v0) (vci3 v0) (kp3 v0) (kw3 v0) (kc3 v0) (wP3 v0) (wW3 v0) (wC3 v0)) (mview3 m) in
  view_ok3x c v1 /\ mval3 m = mabs3 m mod len /\ seenW3x c <= mabs3 m /\ mabs3 m <= pos3 (P3 c) /\
  mabs3 m <= mabs3 (nth (vpi3 v1) (Mpi3 c) dmsg3) /\ kw3 v0 <= kw3 v1.
Proof.
  intros I Hi1 Hi2 m v0 v1.
  destruct (Forall_nth_msg3 _ _ i (x_mpi c I) Hi2) as [Hmv Hmok]. fold m in Hmv, Hmok.
  pose proof (x_wpi c I i Hi2) as Hmw. fold m in Hmw.
  pose proof (x_spi c I) as Hs.
  splits.
  - destruct (view_idx c _ (x_vW c I)) as (_&P2&P3'). destruct (view_msg c _ (x_vW c I)) as (_&P8&P9).
    fold v0 in P2, P3', P8, P9.
    apply view_ok3x_acq; try assumption; [exact (x_vW c I) | ..].
    + exact (Nat.le_trans _ _ _ Hmw (Nat.le_max_r _ _)).
    + exact (Nat.le_trans _ _ _ P8 (Nat.le_max_l _ _)).
    + exact (Nat.le_trans _ _ _ P9 (Nat.le_max_l _ _)).
  - exact Hmv.
  - apply Hs; assumption.
  - rewrite <- (x_lpi c I). apply sorted3_last; assumption.
  - apply Hs; [apply Nat.le_max_l | apply Nat.max_lub_lt; [exact Hi2 | apply Hmok]].
  - apply Nat.le_max_l.
Qed.

Lemma W_load_x c j n0 : Inv3x c -> pc3 (W3 c) = 0 -> ca3 (W3 c) < Nat.max 1 n0 -> keeps c (opW3_a true len j n0 c).
Proof.
  intros I Hpc0 Hca.
  destruct (x_pcW c I) as [[[_ Hoff]|[(X&_)|(X&_)]]|(X&_)]; try congruence.
  unfold opW3_a. rewrite Hpc0. cbv beta iota zeta.
  rewrite (proj2 (Nat.leb_gt _ _) Hca).
  destruct (view_idx c _ (x_vW c I)) as (P1&_).
  destruct (pick_bounds (vpi3 (V3 (W3 c))) (length (Mpi3 c)) j P1) as [Hi1 Hi2].
  set (i := pick (vpi3 (V3 (W3 c))) (length (Mpi3 c)) j) in *. clearbody i.
  destruct (W_acq c i I Hi1 Hi2) as (Hv1 & Hmv & Hseen & HmP & Hmono & Hk).
  set (m := nth i (Mpi3 c) dmsg3) in *. clearbody m.
  set (v1 := vjoin3 _ (mview3 m)) in *. clearbody v1.
  pose proof (stages3x c I) as Hst.
  pose proof (x_caW c I) as HcaW. unfold seenW3x in *.
  assert (Ha : dist len (ix3 (W3 c)) (mval3 m) = mabs3 m - pos3 (W3 c)).
  { rewrite (x_ixW c I), Hmv. apply dist_mod; lia. }
  apply setW_inv; unfold t_load; cbn; try reflexivity; try assumption; auto.
  - rewrite Hoff. apply Nat.le_refl.
  - rewrite Ha. lia.
  - left. unfold pc_okx; cbn.
    destruct (Nat.leb_spec (Nat.max 1 n0) (dist len (ix3 (W3 c)) (mval3 m))); [right; left | left]; lia.
Qed.
Lemma W_write_x c j n0 : Inv3x c -> pc3 (W3 c) = 2 -> keeps c (opW3_a true len j n0 c).
Proof.
  intros I Hpc2.
  destruct (x_pcW c I) as [[[X _]|[(_&Hoff&Hcnt)|(X&_)]]|(X&_)]; try congruence.
  unfold opW3_a. rewrite Hpc2. cbv beta iota zeta. unfold t_slot.
  pose proof (frontier3x c I) as Hfr. pose proof (cap3x c I) as Hcap.
  pose proof (x_vW c I) as V. pose proof (view_msg c _ V) as Vmsg. pose proof (view_chain c _ V) as Vch.
  pose proof (x_caW c I) as HcaW. unfold seenW3x in HcaW.
  pose proof (x_lwi c I) as Hlwi. pose proof (x_lci c I) as Hlci.
  assert (Hk0 : wadd len (ix3 (W3 c)) (off3 (W3 c)) = (pos3 (W3 c) + off3 (W3 c)) mod len)
    by (rewrite (x_ixW c I); apply wadd_mod; lia).
  set (k0 := wadd len (ix3 (W3 c)) (off3 (W3 c))) in *.
  set (q := pos3 (W3 c) + off3 (W3 c)) in *.
  assert (Hk : k0 < len) by (rewrite Hk0; apply Nat.mod_upper_bound; lia).
  destruct (x_slot c I _ Hk) as (S1&S2&S3&S4&S5&S6).
  fold (mtx3 c k0).
  assert (HseenW : q + 1 <= wP3 (V3 (W3 c))) by lia.
  (* the consumer's last read of this slot is one lap (or more) below, and covered by the worker's view *)
  assert (Hr : rpos3 (mtx3 c k0) + len <= q).
  { apply (Ring.congr_le len); [exact Hlen | rewrite (Ring.mod_add_len len _ Hlen), S2, Hk0; reflexivity | lia]. }
  assert (Hcov : rclk3 (mtx3 c k0) <= kc3 (V3 (W3 c))) by (apply (view_rcover c _ V _ Hk); lia).
  (* the producer's last write of this slot is not above the position being edited, hence below the
     watermark the worker acquired *)
  assert (Hwc : wcov TW (mtx3 c k0) (V3 (W3 c)) = true).
  { unfold wcov. destruct (wt (mtx3 c k0)) eqn:Ew; auto.
    destruct (S3 eq_refl) as (T1&T2).
    assert (Hw : wpos3 (mtx3 c k0) <= q).
    { apply (Ring.congr_le len); [exact Hlen | rewrite S1, Hk0; reflexivity | lia]. }
    apply Nat.leb_le. pose proof (view_wcover c _ V _ Hk) as P13. unfold wcover in P13. rewrite Ew in P13.
    apply P13. lia. }
  rewrite Hwc, (proj2 (Nat.leb_le _ _) Hcov), orb_false_r.
  set (c' := mkC3x _ _ _ _ _ _ _ _).
  assert (Hmt0 : mtx3 c' k0 = mkMeta3 TW q (kw3 (V3 (W3 c))) (rpos3 (mtx3 c k0)) (rclk3 (mtx3 c k0)))
    by (unfold mtx3, c'; cbn; apply nth_upd_eq; rewrite (x_metas c I); exact Hk).
  assert (G : grows3x c c').
  { apply grows3x_slot with (k0 := k0) (m := mkMeta3 TW q (kw3 (V3 (W3 c))) (rpos3 (mtx3 c k0)) (rclk3 (mtx3 c k0)));
      try reflexivity; [rewrite (x_metas c I); exact Hk | right; left; cbn].
    splits; [reflexivity | apply Nat.le_add_r | reflexivity | reflexivity]. }
  destruct (grows_views c c' I G) as (Fp&Fw&Fc&Vp&Vw&Vc).
  split; [|exact G]. constructor; cbn; try assumption; try (destruct I; assumption).
  - rewrite upd_length; apply I.
  - left. unfold pc_okx; cbn.
    destruct (Nat.leb_spec (cnt3 (W3 c)) (off3 (W3 c) + 1)); [right; right | right; left]; lia.
  - intros k Hk'. unfold slot_okx. destruct (Nat.eq_dec k k0) as [->|Hne].
    + rewrite Hmt0; cbn. splits; auto; try lia; intros E; discriminate E.
    + replace (mtx3 c' k) with (mtx3 c k) by (symmetry; apply nth_upd_neq; auto).
      destruct (x_slot c I k Hk') as (T1&T2&T3&T4&T5&T6).
      cbn. splits; auto.
      intros E. destruct (T4 E) as (U1&U2). split; [lia|auto].
Qed.

Lemma publishW_inv c ix' p' ca' d :
  Inv3x c -> pos3 (W3 c) + off3 (W3 c) <= p' -> p' + ca' <= seenW3x c -> ix' = p' mod len ->
  keeps c (publishW c ix' p' ca' d).
Proof.
  intros I Hp' Hca' Hix'. unfold seenW3x in Hca'.
  unfold publishW. cbv beta iota zeta. unfold t_end.
  pose proof (x_vW c I) as V. pose proof (view_idx c _ V) as Vidx. pose proof (view_pos c _ V) as Vpos.
  pose proof (view_msg c _ V) as Vmsg. pose proof (view_chain c _ V) as Vch.
  pose proof (stages3x c I) as Hst.
  pose proof (x_lwi c I) as Hlwi.
  set (v1 := mkV3 _ (length (Mwi3 c)) _ _ _ _ _ p' _).
  set (m := mkM3 _ _ v1).
  set (c' := mkC3x _ _ _ _ _ _ _ _).
  assert (G : grows3x c c').
  { apply grows3x_msgs; cbn; try apply ext_refl; try apply Nat.le_refl; [apply ext_snoc | lia | reflexivity]. }
  destruct (grows_views c c' I G) as (Fp&Fw&Fc&Vp&_&Vc).
  assert (Hnth : forall i, i < length (Mwi3 c) -> nth i (Mwi3 c ++ [m]) dmsg3 = nth i (Mwi3 c) dmsg3)
    by (intros; apply nth_app_l; assumption).
  assert (HsC : seenC3x c' = seenC3x c).
  { unfold seenC3x, c'; cbn. rewrite Hnth; [reflexivity | apply (x_vC c I)]. }
  assert (Hv1 : view_ok3x c' v1).
  { unfold view_ok3x, v1, c'; cbn. rewrite app_length, nth_app_last; cbn.
    splits; try apply Nat.le_refl; try lia; [|exact (view_rcover c _ V)].
    intros k Hk. unfold wcover. destruct (x_slot c I k Hk) as (_&_&_&S4&_).
    pose proof (view_wcover c _ V k Hk) as P13. unfold wcover in P13. unfold mtx3 in *; cbn.
    destruct (wt (nth k (metas3 c) dmeta3)) eqn:Ew; auto.
    intros _. apply (S4 eq_refl). }
  split; [|exact G]. constructor; cbn; try assumption; try (destruct I; assumption).
  - rewrite app_length; cbn; lia.
  - apply sorted3_app; [apply I | cbn; lia].
  - rewrite lastabs3_app. apply Nat.le_refl.
  - intros _. apply lastabs3_app.
  - apply Forall_app1; [exact Fw | split; [exact Hix' | exact Hv1]].
  - intros i Hi. rewrite app_length in Hi; cbn in Hi.
    destruct (Nat.eq_dec i (length (Mwi3 c))) as [->|Hne].
    + rewrite nth_app_last. apply Nat.le_refl.
    + rewrite Hnth by lia. apply (x_wwi c I); lia.
  - apply (view_ok3x_clock c' v1); [exact Hv1 | apply Nat.le_refl | apply Nat.le_succ_diag_r | apply Nat.le_refl].
  - unfold seenW3x; cbn. lia.
  - change (ca3 (C3 c) + pos3 (C3 c) <= seenC3x c'). rewrite HsC. apply I.
  - left; left; auto.
  - change (pc_okr (C3 c) (seenC3x c')). rewrite HsC. apply I.
  - intros k Hk. destruct (x_slot c I k Hk) as (S1&S2&S3&S4&S5&S6).
    unfold slot_okx, mtx3 in *; cbn. splits; auto.
    intros E. destruct (S4 E) as (U1&U2). split; lia.
Qed.

Lemma localW_inv c ix' p' ca' :
  Inv3x c -> det3 (W3 c) = true -> pos3 (W3 c) + off3 (W3 c) <= p' -> p' + ca' <= seenW3x c -> ix' = p' mod len ->
  keeps c (localW c ix' p' ca').
Proof.
  intros I Hdet Hp' Hca' Hix'.
  unfold localW. cbv beta iota zeta. unfold t_end.
  pose proof (x_lwi c I) as Hlwi.
  set (c' := mkC3x _ _ _ _ _ _ _ _).
  assert (G : grows3x c c').
  { apply grows3x_msgs; cbn; try apply ext_refl; try apply Nat.le_refl; [lia | reflexivity]. }
  destruct (grows_views c c' I G) as (Fp&Fw&Fc&Vp&Vw&Vc).
  split; [|exact G]. constructor; cbn; try assumption; try (destruct I; assumption).
  - lia.
  - rewrite Hdet; discriminate.
  - unfold seenW3x in *; cbn. lia.
  - left; left; auto.
  - intros k Hk. apply slot_okx_pcW; [apply I; exact Hk | cbn; lia | apply Nat.le_refl].
Qed.

Lemma finishW_inv c ix' p' ca' :
  Inv3x c -> pos3 (W3 c) + off3 (W3 c) <= p' -> p' + ca' <= seenW3x c -> ix' = p' mod len ->
  keeps c (finishW c ix' p' ca').
Proof.
  intros I Hp' Hca' Hix'. unfold finishW.
  destruct (det3 (W3 c)) eqn:Hdet.
  - apply localW_inv; auto.
  - apply publishW_inv; auto.
Qed.

Lemma W_store_x c j n0 : Inv3x c -> pc3 (W3 c) = 3 -> keeps c (opW3_a true len j n0 c).
Proof.
  intros I Hpc3.
  destruct (x_pcW c I) as [[[X _]|[(X&_)|(_&Hoff&Hcnt)]]|(X&_)]; try congruence.
  unfold opW3_a. rewrite Hpc3. cbv beta iota zeta.
  pose proof (cap3x c I) as Hcap. pose proof (x_caW c I) as HcaW.
  apply finishW_inv; [exact I | lia | lia |].
  rewrite (x_ixW c I); apply wadd_mod; lia.
Qed.

Lemma W_rstore_x c j n0 : Inv3x c -> pc3 (W3 c) = 5 -> keeps c (opW3_a true len j n0 c).
Proof.
  intros I Hpc5.
  destruct (x_pcW c I) as [[[X _]|[(X&_)|(X&_)]]|(_&Hoff&Hge&Hle&Hnix)]; try congruence.
  unfold opW3_a. rewrite Hpc5. cbv beta iota zeta.
  apply finishW_inv; [exact I | lia | lia | exact Hnix].
Qed.

Lemma resetW_inv c j : Inv3x c -> pc3 (W3 c) = 0 -> keeps c (resetW_a true j c).
Proof.
  intros I Hpc0.
  destruct (x_pcW c I) as [[[_ Hoff]|[(X&_)|(X&_)]]|(X&_)]; try congruence.
  unfold resetW_a. cbv beta iota zeta.
  destruct (view_idx c _ (x_vW c I)) as (P1&_).
  destruct (pick_bounds (vpi3 (V3 (W3 c))) (length (Mpi3 c)) j P1) as [Hi1 Hi2].
  set (i := pick (vpi3 (V3 (W3 c))) (length (Mpi3 c)) j) in *. clearbody i.
  destruct (W_acq c i I Hi1 Hi2) as (Hv1 & Hmv & Hseen & HmP & Hmono & Hk).
  set (m := nth i (Mpi3 c) dmsg3) in *. clearbody m.
  set (v1 := vjoin3 _ (mview3 m)) in *. clearbody v1.
  pose proof (x_caW c I) as HcaW. unfold seenW3x in *.
  apply setW_inv; unfold t_reset; cbn; try reflexivity; try assumption; auto.
  - lia.
  - right; cbn. splits; auto; lia.
Qed.

Lemma detachW_inv c : Inv3x c -> pc3 (W3 c) = 0 -> keeps c (detachW c).
Proof.
  intros I Hpc0. unfold detachW, t_detach.
  apply setW_inv; cbn; try reflexivity; try apply I.
  discriminate.
Qed.

Lemma syncW_inv c d :
  Inv3x c -> pc3 (W3 c) = 0 -> keeps c (publishW c (ix3 (W3 c)) (pos3 (W3 c)) (ca3 (W3 c)) d).
Proof.
  intros I Hpc0.
  destruct (x_pcW c I) as [[[_ Hoff]|[(X&_)|(X&_)]]|(X&_)]; try congruence.
  pose proof (x_caW c I) as HcaW.
  apply publishW_inv; [exact I | lia | lia | apply I].
Qed.
Lemma setC_inv c t' : Inv3x c ->
  ix3 t' = ix3 (C3 c) -> pos3 t' = pos3 (C3 c) -> off3 (C3 c) <= off3 t' ->
  (det3 t' = false -> det3 (C3 c) = false) ->
  view_ok3x c (V3 t') -> kc3 (V3 (C3 c)) <= kc3 (V3 t') ->
  ca3 t' + pos3 t' <= mabs3 (nth (vwi3 (V3 t')) (Mwi3 c) dmsg3) ->
  pc_okr t' (mabs3 (nth (vwi3 (V3 t')) (Mwi3 c) dmsg3)) ->
  keeps c (mkC3x (Mpi3 c) (Mwi3 c) (Mci3 c) (metas3 c) (P3 c) (W3 c) t' (race3 c)).
Proof.
  intros I Hix Hpos Hoff Hdet Hv Hk Hca Hpc.
  set (c' := mkC3x _ _ _ _ _ _ _ _).
  assert (G : grows3x c c').
  { apply grows3x_msgs; cbn; try apply ext_refl; try apply Nat.le_refl; [rewrite Hpos; apply Nat.le_refl | reflexivity]. }
  destruct (grows_views c c' I G) as (Fp&Fw&Fc&Vp&Vw&_).
  split; [|exact G]. constructor; cbn; try assumption; try (destruct I; assumption).
  - rewrite Hpos. apply I.
  - intros E. rewrite Hpos. apply I. exact (Hdet E).
  - exact (view_ok3x_grows c c' _ G Hv).
  - rewrite Hix, Hpos. apply I.
  - intros k Hk'. apply slot_okx_pcC; [apply I; exact Hk' | rewrite Hpos; apply Nat.add_le_mono_l; exact Hoff | exact Hk].
Qed.

Lemma C_fast_x c j n0 : Inv3x c -> pc3 (C3 c) = 0 -> Nat.max 1 n0 <= ca3 (C3 c) -> keeps c (opC3_a true len j n0 c).
Proof.
  intros I Hpc0 Hca.
  destruct (x_pcC c I) as [[[_ Hoff]|[(X&_)|(X&_)]]|(X&_)]; try congruence.
  unfold opC3_a. rewrite Hpc0. cbv beta iota zeta.
  rewrite (proj2 (Nat.leb_le _ _) Hca).
  apply setC_inv; unfold t_grant; cbn; try reflexivity; try apply I; auto.
  - rewrite Hoff. apply Nat.le_refl.
  - left; right; left; cbn. split; [reflexivity | split; [lia | exact Hca]].
Qed.

Lemma C_acq c i :
  Inv3x c -> vwi3 (V3 (C3 c)) <= i -> i < length (Mwi3 c) ->
  let m := nth i (Mwi3 c) dmsg3 in
  let v0 := V3 (C3 c) in
  let v1 := vjoin3 (mkV3 (vpi3 v0) i (vci3 v0) (kp3 v0) (kw3 v0) (kc3 v0) (wP3 v0) (wW3 v0) (wC3 v0)) (mview3 m) in
  view_ok3x c v1 /\ mval3 m = mabs3 m mod len /\ seenC3x c <= mabs3 m /\ mabs3 m <= pos3 (W3 c) /\
  mabs3 m <= mabs3 (nth (vwi3 v1) (Mwi3 c) dmsg3) /\ kc3 v0 <= kc3 v1.
Proof.
  intros I Hi1 Hi2 m v0 v1.
  destruct (Forall_nth_msg3 _ _ i (x_mwi c I) Hi2) as [Hmv Hmok]. fold m in Hmv, Hmok.
  pose proof (x_wwi c I i Hi2) as Hmw. fold m in Hmw.
  pose proof (x_swi c I) as Hs.
  splits.
  - destruct (view_idx c _ (x_vC c I)) as (P1&_&P3'). destruct (view_msg c _ (x_vC c I)) as (P7&_&P9).
    fold v0 in P1, P3', P7, P9.
    apply view_ok3x_acq; try assumption; [exact (x_vC c I) | ..].
    + exact (Nat.le_trans _ _ _ P7 (Nat.le_max_l _ _)).
    + exact (Nat.le_trans _ _ _ Hmw (Nat.le_max_r _ _)).
    + exact (Nat.le_trans _ _ _ P9 (Nat.le_max_l _ _)).
  - exact Hmv.
  - apply Hs; assumption.
  - apply Nat.le_trans with (lastabs3 (Mwi3 c)); [apply sorted3_last; assumption | apply I].
  - apply Hs; [apply Nat.le_max_l | apply Nat.max_lub_lt; [exact Hi2 | apply Hmok]].
  - apply Nat.le_max_l.
Qed.

Lemma C_load_x c j n0 : Inv3x c -> pc3 (C3 c) = 0 -> ca3 (C3 c) < Nat.max 1 n0 -> keeps c (opC3_a true len j n0 c).
Proof.
  intros I Hpc0 Hca.
  destruct (x_pcC c I) as [[[_ Hoff]|[(X&_)|(X&_)]]|(X&_)]; try congruence.
  unfold opC3_a. rewrite Hpc0. cbv beta iota zeta.
  rewrite (proj2 (Nat.leb_gt _ _) Hca).
  destruct (view_idx c _ (x_vC c I)) as (_&P2&_).
  destruct (pick_bounds (vwi3 (V3 (C3 c))) (length (Mwi3 c)) j P2) as [Hi1 Hi2].
  set (i := pick (vwi3 (V3 (C3 c))) (length (Mwi3 c)) j) in *. clearbody i.
  destruct (C_acq c i I Hi1 Hi2) as (Hv1 & Hmv & Hseen & HmW & Hmono & Hk).
  set (m := nth i (Mwi3 c) dmsg3) in *. clearbody m.
  set (v1 := vjoin3 _ (mview3 m)) in *. clearbody v1.
  pose proof (stages3x c I) as Hst.
  pose proof (x_caC c I) as HcaC. unfold seenC3x in *.
  assert (Ha : dist len (ix3 (C3 c)) (mval3 m) = mabs3 m - pos3 (C3 c)).
  { rewrite (x_ixC c I), Hmv. apply dist_mod; lia. }
  apply setC_inv; unfold t_load; cbn; try reflexivity; try assumption; auto.
  - rewrite Hoff. apply Nat.le_refl.
  - rewrite Ha. lia.
  - left. unfold pc_okx; cbn.
    destruct (Nat.leb_spec (Nat.max 1 n0) (dist len (ix3 (C3 c)) (mval3 m))); [right; left | left]; lia.
Qed.

Lemma C_read_x c j n0 : Inv3x c -> pc3 (C3 c) = 2 -> keeps c (opC3_a true len j n0 c).
Proof.
  intros I Hpc2.
  destruct (x_pcC c I) as [[[X _]|[(_&Hoff&Hcnt)|(X&_)]]|(X&_)]; try congruence.
  unfold opC3_a. rewrite Hpc2. cbv beta iota zeta. unfold t_slot.
  pose proof (stages3x c I) as Hst. pose proof (frontier3x c I) as Hfr. pose proof (cap3x c I) as Hcap.
  pose proof (x_vC c I) as V. pose proof (view_msg c _ V) as Vmsg. pose proof (view_chain c _ V) as Vch.
  pose proof (x_caC c I) as HcaC. unfold seenC3x in HcaC. pose proof (x_lci c I) as Hlci.
  assert (Hk0 : wadd len (ix3 (C3 c)) (off3 (C3 c)) = (pos3 (C3 c) + off3 (C3 c)) mod len)
    by (rewrite (x_ixC c I); apply wadd_mod; lia).
  set (k0 := wadd len (ix3 (C3 c)) (off3 (C3 c))) in *.
  set (q := pos3 (C3 c) + off3 (C3 c)) in *.
  assert (Hk : k0 < len) by (rewrite Hk0; apply Nat.mod_upper_bound; lia).
  destruct (x_slot c I _ Hk) as (S1&S2&S3&S4&S5&S6).
  fold (mtx3 c k0).
  assert (HseenC : q + 1 <= wW3 (V3 (C3 c))) by lia.
  (* the last write of this slot (by the producer, or by the worker - if it did not skip the item) is not above
     the position being read, hence below the watermarks the consumer acquired *)
  assert (Hwc : wcov TC (mtx3 c k0) (V3 (C3 c)) = true).
  { unfold wcov. pose proof (view_wcover c _ V _ Hk) as P13. unfold wcover in P13.
    destruct (wt (mtx3 c k0)) eqn:Ew; auto; apply Nat.leb_le; apply P13.
    - destruct (S3 eq_refl) as (T1&T2).
      assert (Hw : wpos3 (mtx3 c k0) <= q)
        by (apply (Ring.congr_le len); [exact Hlen | rewrite S1, Hk0; reflexivity | lia]).
      lia.
    - destruct (S4 eq_refl) as (T1&T2).
      assert (Hw : wpos3 (mtx3 c k0) <= q)
        by (apply (Ring.congr_le len); [exact Hlen | rewrite S1, Hk0; reflexivity | lia]).
      lia. }
  rewrite Hwc. cbn [negb]. rewrite orb_false_r.
  set (c' := mkC3x _ _ _ _ _ _ _ _).
  assert (Hmt0 : mtx3 c' k0 = mkMeta3 (wt (mtx3 c k0)) (wpos3 (mtx3 c k0)) (wclk3 (mtx3 c k0)) q (kc3 (V3 (C3 c))))
    by (unfold mtx3, c'; cbn; apply nth_upd_eq; rewrite (x_metas c I); exact Hk).
  assert (G : grows3x c c').
  { apply grows3x_slot with (k0 := k0)
      (m := mkMeta3 (wt (mtx3 c k0)) (wpos3 (mtx3 c k0)) (wclk3 (mtx3 c k0)) q (kc3 (V3 (C3 c))));
      try reflexivity; [rewrite (x_metas c I); exact Hk | right; right; cbn].
    splits; [apply Nat.le_add_r | reflexivity | reflexivity | reflexivity]. }
  destruct (grows_views c c' I G) as (Fp&Fw&Fc&Vp&Vw&Vc).
  split; [|exact G]. constructor; cbn; try assumption; try (destruct I; assumption).
  - rewrite upd_length; apply I.
  - left. unfold pc_okx; cbn.
    destruct (Nat.leb_spec (cnt3 (C3 c)) (off3 (C3 c) + 1)); [right; right | right; left]; lia.
  - intros k Hk'. unfold slot_okx. destruct (Nat.eq_dec k k0) as [->|Hne].
    + rewrite Hmt0; cbn. splits; auto; lia.
    + replace (mtx3 c' k) with (mtx3 c k) by (symmetry; apply nth_upd_neq; auto).
      destruct (x_slot c I k Hk') as (T1&T2&T3&T4&T5&T6).
      cbn. splits; auto; lia.
Qed.

Lemma publishC_inv c ix' p' ca' d :
  Inv3x c -> pos3 (C3 c) + off3 (C3 c) <= p' -> p' + ca' <= seenC3x c -> ix' = p' mod len ->
  keeps c (publishC c ix' p' ca' d).
Proof.
  intros I Hp' Hca' Hix'. unfold seenC3x in Hca'.
  unfold publishC. cbv beta iota zeta. unfold t_end.
  pose proof (x_vC c I) as V. pose proof (view_idx c _ V) as Vidx. pose proof (view_pos c _ V) as Vpos.
  pose proof (view_msg c _ V) as Vmsg. pose proof (view_chain c _ V) as Vch.
  pose proof (x_lci c I) as Hlci.
  set (v1 := mkV3 _ _ (length (Mci3 c)) _ _ _ _ _ p').
  set (m := mkM3 _ _ v1).
  set (c' := mkC3x _ _ _ _ _ _ _ _).
  assert (G : grows3x c c').
  { apply grows3x_msgs; cbn; try apply ext_refl; try apply Nat.le_refl; [apply ext_snoc | lia | reflexivity]. }
  destruct (grows_views c c' I G) as (Fp&Fw&Fc&Vp&Vw&_).
  assert (Hnth : forall i, i < length (Mci3 c) -> nth i (Mci3 c ++ [m]) dmsg3 = nth i (Mci3 c) dmsg3)
    by (intros; apply nth_app_l; assumption).
  assert (Hv1 : view_ok3x c' v1).
  { unfold view_ok3x, v1, c'; cbn. rewrite app_length, nth_app_last; cbn.
    splits; try apply Nat.le_refl; try lia; [exact (view_wcover c _ V)|].
    intros k Hk Hw. apply (x_slot c I k Hk). }
  split; [|exact G]. constructor; cbn; try assumption; try (destruct I; assumption).
  - rewrite app_length; cbn; lia.
  - apply sorted3_app; [apply I | cbn; lia].
  - rewrite lastabs3_app. apply Nat.le_refl.
  - intros _. apply lastabs3_app.
  - apply Forall_app1; [exact Fc | split; [exact Hix' | exact Hv1]].
  - intros i Hi. rewrite app_length in Hi; cbn in Hi.
    destruct (Nat.eq_dec i (length (Mci3 c))) as [->|Hne].
    + rewrite nth_app_last. apply Nat.le_refl.
    + rewrite Hnth by lia. apply (x_wci c I); lia.
  - apply (view_ok3x_clock c' v1); [exact Hv1 | apply Nat.le_refl | apply Nat.le_refl | apply Nat.le_succ_diag_r].
  - unfold seenP3x; cbn. rewrite Hnth by apply (x_vP c I). apply I.
  - unfold seenC3x; cbn. lia.
  - left; left; auto.
  - intros k Hk. destruct (x_slot c I k Hk) as (S1&S2&S3&S4&S5&S6).
    unfold slot_okx, mtx3 in *; cbn. splits; auto; lia.
Qed.

Lemma localC_inv c ix' p' ca' :
  Inv3x c -> det3 (C3 c) = true -> pos3 (C3 c) + off3 (C3 c) <= p' -> p' + ca' <= seenC3x c -> ix' = p' mod len ->
  keeps c (localC c ix' p' ca').
Proof.
  intros I Hdet Hp' Hca' Hix'.
  unfold localC. cbv beta iota zeta. unfold t_end.
  pose proof (x_lci c I) as Hlci.
  set (c' := mkC3x _ _ _ _ _ _ _ _).
  assert (G : grows3x c c').
  { apply grows3x_msgs; cbn; try apply ext_refl; try apply Nat.le_refl; [lia | reflexivity]. }
  destruct (grows_views c c' I G) as (Fp&Fw&Fc&Vp&Vw&Vc).
  split; [|exact G]. constructor; cbn; try assumption; try (destruct I; assumption).
  - lia.
  - rewrite Hdet; discriminate.
  - unfold seenC3x in *; cbn. lia.
  - left; left; auto.
  - intros k Hk. apply slot_okx_pcC; [apply I; exact Hk | cbn; lia | apply Nat.le_refl].
Qed.

Lemma finishC_inv c ix' p' ca' :
  Inv3x c -> pos3 (C3 c) + off3 (C3 c) <= p' -> p' + ca' <= seenC3x c -> ix' = p' mod len ->
  keeps c (finishC c ix' p' ca').
Proof.
  intros I Hp' Hca' Hix'. unfold finishC.
  destruct (det3 (C3 c)) eqn:Hdet.
  - apply localC_inv; auto.
  - apply publishC_inv; auto.
Qed.

Lemma C_store_x c j n0 : Inv3x c -> pc3 (C3 c) = 3 -> keeps c (opC3_a true len j n0 c).
Proof.
  intros I Hpc3.
  destruct (x_pcC c I) as [[[X _]|[(X&_)|(_&Hoff&Hcnt)]]|(X&_)]; try congruence.
  unfold opC3_a. rewrite Hpc3. cbv beta iota zeta.
  pose proof (cap3x c I) as Hcap. pose proof (x_caC c I) as HcaC.
  apply finishC_inv; [exact I | lia | lia |].
  rewrite (x_ixC c I); apply wadd_mod; lia.
Qed.

Lemma C_rstore_x c j n0 : Inv3x c -> pc3 (C3 c) = 5 -> keeps c (opC3_a true len j n0 c).
Proof.
  intros I Hpc5.
  destruct (x_pcC c I) as [[[X _]|[(X&_)|(X&_)]]|(_&Hoff&Hge&Hle&Hnix)]; try congruence.
  unfold opC3_a. rewrite Hpc5. cbv beta iota zeta.
  apply finishC_inv; [exact I | lia | lia | exact Hnix].
Qed.

Lemma resetC_inv c j : Inv3x c -> pc3 (C3 c) = 0 -> keeps c (resetC_a true j c).
Proof.
  intros I Hpc0.
  destruct (x_pcC c I) as [[[_ Hoff]|[(X&_)|(X&_)]]|(X&_)]; try congruence.
  unfold resetC_a. cbv beta iota zeta.
  destruct (view_idx c _ (x_vC c I)) as (_&P2&_).
  destruct (pick_bounds (vwi3 (V3 (C3 c))) (length (Mwi3 c)) j P2) as [Hi1 Hi2].
  set (i := pick (vwi3 (V3 (C3 c))) (length (Mwi3 c)) j) in *. clearbody i.
  destruct (C_acq c i I Hi1 Hi2) as (Hv1 & Hmv & Hseen & HmW & Hmono & Hk).
  set (m := nth i (Mwi3 c) dmsg3) in *. clearbody m.
  set (v1 := vjoin3 _ (mview3 m)) in *. clearbody v1.
  pose proof (x_caC c I) as HcaC. unfold seenC3x in *.
  apply setC_inv; unfold t_reset; cbn; try reflexivity; try assumption; auto.
  - lia.
  - right; cbn. splits; auto; lia.
Qed.

Lemma detachC_inv c : Inv3x c -> pc3 (C3 c) = 0 -> keeps c (detachC c).
Proof.
  intros I Hpc0. unfold detachC, t_detach.
  apply setC_inv; cbn; try reflexivity; try apply I.
  discriminate.
Qed.

Lemma syncC_inv c d :
  Inv3x c -> pc3 (C3 c) = 0 -> keeps c (publishC c (ix3 (C3 c)) (pos3 (C3 c)) (ca3 (C3 c)) d).
Proof.
  intros I Hpc0.
  destruct (x_pcC c I) as [[[_ Hoff]|[(X&_)|(X&_)]]|(X&_)]; try congruence.
  pose proof (x_caC c I) as HcaC.
  apply publishC_inv; [exact I | lia | lia | apply I].
Qed.
Lemma opP_inv_x c j n0 : Inv3x c -> keeps c (opP3_a true len j n0 c).
Proof.
  intros I. destruct (x_pcP c I) as [[H0 _]|[[H2 _]|[H3 _]]].
  - destruct (Nat.le_gt_cases (Nat.max 1 n0) (ca3 (P3 c))); [apply P_fast_x | apply P_load_x]; assumption.
  - apply P_write_x; assumption.
  - apply P_store_x; assumption.
Qed.

Lemma opW_inv_x c j n0 : Inv3x c -> keeps c (opW3_a true len j n0 c).
Proof.
  intros I. destruct (x_pcW c I) as [[[H0 _]|[[H2 _]|[H3 _]]]|[H5 _]].
  - destruct (Nat.le_gt_cases (Nat.max 1 n0) (ca3 (W3 c))); [apply W_fast_x | apply W_load_x]; assumption.
  - apply W_write_x; assumption.
  - apply W_store_x; assumption.
  - apply W_rstore_x; assumption.
Qed.

Lemma opC_inv_x c j n0 : Inv3x c -> keeps c (opC3_a true len j n0 c).
Proof.
  intros I. destruct (x_pcC c I) as [[[H0 _]|[[H2 _]|[H3 _]]]|[H5 _]].
  - destruct (Nat.le_gt_cases (Nat.max 1 n0) (ca3 (C3 c))); [apply C_fast_x | apply C_load_x]; assumption.
  - apply C_read_x; assumption.
  - apply C_store_x; assumption.
  - apply C_rstore_x; assumption.
Qed.

Lemma step3x_keeps c s : Inv3x c -> keeps c (step3_x len c s).
Proof.
  intros I. pose proof (keeps_refl c I) as R.
  destruct s as [[| |] k]; unfold step3_x, step3_a; cbn [fst snd].
  - destruct k as [j n0|j| | |]; cbn; auto. apply opP_inv_x; assumption.
  - unfold stepW3_a. destruct k as [j n0|j| | |]; [apply opW_inv_x; assumption|..];
      destruct (pc3 (W3 c)) as [|q] eqn:E; auto.
    + apply resetW_inv; assumption.
    + apply detachW_inv; assumption.
    + apply syncW_inv; assumption.
    + apply syncW_inv; assumption.
  - unfold stepC3_a. destruct k as [j n0|j| | |]; [apply opC_inv_x; assumption|..];
      destruct (pc3 (C3 c)) as [|q] eqn:E; auto.
    + apply resetC_inv; assumption.
    + apply detachC_inv; assumption.
    + apply syncC_inv; assumption.
    + apply syncC_inv; assumption.
Qed.

Lemma step3x_inv c s : Inv3x c -> Inv3x (step3_x len c s).
Proof. intros I. apply (step3x_keeps c s I). Qed.

Lemma init3x_inv : Inv3x (init3_x len).
Proof.
  assert (Hv : forall a b c0, view_ok3x (init3_x len) (vinit len a b c0)).
  { intros. unfold view_ok3x, init3_x, vinit, mtx3; cbn. splits; try lia.
    - intros k Hk. unfold wcover. rewrite nth_init_meta3 by auto. exact Logic.I.
    - intros k Hk Hw. rewrite nth_init_meta3 in * by auto. cbn in *. lia. }
  assert (Hs : forall x, sorted3 [x]).
  { intros x i j Hij Hj. cbn in Hj. replace i with 0 by lia. replace j with 0 by lia. apply Nat.le_refl. }
  assert (E : 0 = len mod len) by (symmetry; apply Nat.mod_same; lia).
  assert (Hm : Forall (msg_ok3x (init3_x len)) [mkM3 0 len (vinit len 0 0 0)]).
  { constructor; [split; [exact E | apply Hv] | constructor]. }
  (* left after the views ([Hv]): list length, the messages' watermarks, the producer's free slots, the slots *)
  constructor; cbn; auto using Nat.lt_0_1; try (left; auto; fail); try (left; left; auto; fail).
  - rewrite map_length, seq_length; reflexivity.
  - intros [|i] Hi; [apply Nat.le_refl | lia].
  - intros [|i] Hi; [apply Nat.le_refl | lia].
  - intros [|i] Hi; [apply Nat.le_refl | lia].
  - lia.
  - intros k Hk. unfold slot_okx, mtx3; cbn. rewrite nth_init_meta3 by auto. cbn.
    splits; try lia; try (apply Nat.mod_small; auto); intros E; discriminate E.
Qed.

Theorem exec3x_inv script : Inv3x (exec3_x len (init3_x len) script).
Proof.
  exact (fold_left_inv _ Inv3x step3x_inv script _ init3x_inv).
Qed.
End Inv3x.

(* Every release/acquire-consistent execution of the three-stage pipeline - any interleaving, any stale
   read, any sequence of window sizes, resets, detach / sync / attach commands of worker and consumer - is race
   free. *)
Theorem pipeline3_x_race_free : forall len script, 0 < len -> race3 (exec3_x len (init3_x len) script) = false.
Proof. intros len script Hl. apply (x_race len _ (exec3x_inv len Hl script)). Qed.

(* The position the worker / the consumer has published never exceeds its local position; attached, they are
   equal (at every pc: the local index is set by the step that publishes it). *)
Theorem published_le_local_3x : forall len script, 0 < len ->
  let c := exec3_x len (init3_x len) script in
  (publishedW3 c <= pos3 (W3 c) /\ (det3 (W3 c) = false -> publishedW3 c = pos3 (W3 c))) /\
  (publishedC3 c <= pos3 (C3 c) /\ (det3 (C3 c) = false -> publishedC3 c = pos3 (C3 c))) /\
  publishedP3 c = pos3 (P3 c).
Proof.
  intros len script Hl c. pose proof (exec3x_inv len Hl script) as I. fold c in I.
  unfold publishedW3, publishedC3, publishedP3. rewrite <- !lastabs3_last.
  splits;
    [apply (x_lwi len c I) | apply (x_attW len c I) | apply (x_lci len c I) | apply (x_attC len c I)
    | apply (x_lpi len c I)].
Qed.

(* In particular a reset never goes backwards. *)
Theorem never_goes_back_3x : forall len s1 s2, 0 < len ->
  let c1 := exec3_x len (init3_x len) s1 in
  let c2 := exec3_x len (init3_x len) (s1 ++ s2) in
  pos3 (P3 c1) <= pos3 (P3 c2) /\ pos3 (W3 c1) <= pos3 (W3 c2) /\ pos3 (C3 c1) <= pos3 (C3 c2).
Proof.
  intros len s1 s2 Hl. cbv zeta. unfold exec3_x, exec3_a. rewrite fold_left_app.
  change (step3_a true true true len) with (step3_x len).
  pose proof (exec3x_inv len Hl s1) as I. unfold exec3_x, exec3_a in I.
  change (step3_a true true true len) with (step3_x len) in I.
  revert I. generalize (fold_left (step3_x len) s1 (init3_x len)).
  induction s2 as [|s s2 IH]; intros c I; simpl; [lia|].
  destruct (step3x_keeps len Hl c s I) as [_ (_&_&_&A1&A2&A3&_)].
  pose proof (IH _ (step3x_inv len Hl c s I)) as (B1&B2&B3).
  lia.
Qed.

(* The order of the three stages at every moment of every execution, through the PUBLISHED positions:
   the consumer's read frontier is at or below what the worker has PUBLISHED (not merely its local position);
   the worker's edit frontier is at or below the producer's position (always published);
   the producer's write frontier stays strictly less than a lap above what the consumer has PUBLISHED. *)
Theorem order_always_3x : forall len script, 0 < len ->
  let c := exec3_x len (init3_x len) script in
  pos3 (C3 c) + off3 (C3 c) <= publishedW3 c /\ publishedW3 c <= pos3 (W3 c) /\
  pos3 (W3 c) + off3 (W3 c) <= pos3 (P3 c) /\ publishedP3 c = pos3 (P3 c) /\
  pos3 (P3 c) + off3 (P3 c) + 1 <= publishedC3 c + len /\ publishedC3 c <= pos3 (C3 c).
Proof.
  intros len script Hl c. pose proof (exec3x_inv len Hl script) as I. fold c in I.
  unfold publishedW3, publishedC3, publishedP3. rewrite <- !lastabs3_last.
  pose proof (frontier3x len c I) as (HfC&HfW&HfP).
  pose proof (x_lwi len c I) as Hlwi. pose proof (x_lci len c I) as Hlci. pose proof (x_lpi len c I) as Hlpi.
  splits; auto.
Qed.

Print Assumptions pipeline3_x_race_free.
Print Assumptions published_le_local_3x.
Print Assumptions never_goes_back_3x.
Print Assumptions order_always_3x.
