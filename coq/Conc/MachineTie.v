(** * The thread-local arithmetic of the release/acquire machine is the arithmetic of the Rust source.

    The machines of Conc/ compute a thread's next index, remembered availability and grant decision with [wadd], [dist],
    [pavail].  The same decisions are made by the kernels TRANSLATED FROM THE RUST SOURCE on every run (gen/Kernels.v, K-tie):
    for every state of the multi-slot two-stage machine [RAn], the producer's / consumer's step at pc 0 (request [n]: grant
    from the remembered availability, else one load and a refresh) is [check] as written in iterator_trait.rs with the
    [_available] of prod_iter.rs / cons_iter.rs, applied to the value of the message the machine reads; and the step at pc 3
    (publication) is [advance]: the stored index is the one the source stores, the remembered availability decreases as in
    [advance_local].  So an arithmetic slip in the source (wrap condition, off-by-one in the producer's reserve slot,
    forgotten cache update) breaks these lemmas for a symbolic state - not only the sampled executions of S-script.
    Likewise the WORKER's request gate of [RA3n] (Section Tie3) and the consumer's [reset_index], [Detached::reset_index],
    [Detached::advance] and [sync_index] of [RAx] (Section TieX). *)
From Coq Require Import List Arith Lia.
Import ListNotations.
Require Import MRB.Model.KernelM MRB.gen.Kernels MRB.Proofs.KernelTie.
Require MRB.Conc.RA3n.
Require Import MRB.Conc.RAnproof.

Lemma wadd_same : RA.wadd = Ring.wadd.  Proof. reflexivity. Qed.
Lemma dist_same : RA.dist = Ring.dist.  Proof. reflexivity. Qed.
Lemma pavail_same : RA.pavail = Ring.pavail.  Proof. reflexivity. Qed.

Section Tie.
Variables (acqP acqC : bool) (len : nat).
Hypothesis Hmax : len + len < usize_max.

(** the message the producer would read at pc 0 with read choice [j] *)
Definition msgP (c : RAn.cfg_n) (j : nat) : RA.msg :=
  nth (RA.pick (RA.vci (RAn.V (RAn.P c))) (length (RAn.Mci c)) j) (RAn.Mci c) RA.dmsg.
Definition msgC (c : RAn.cfg_n) (j : nat) : RA.msg :=
  nth (RA.pick (RA.vpi (RAn.V (RAn.C c))) (length (RAn.Mpi c)) j) (RAn.Mpi c) RA.dmsg.

(** pc 0 of the producer = [check(n)] of the source with [ProdIter::_available] on the value read *)
Theorem machine_check_P c j n0 :
  RAn.pc (RAn.P c) = 0 -> RAn.ix (RAn.P c) < len -> RA.mval (msgP c j) < len ->
  let t := RAn.P c in let t' := RAn.P (RAn.stepP_a acqP len j n0 c) in
  run (g_check (mkE (RA.mval (msgP c j)) len) (g_prod_available (mkE (RA.mval (msgP c j)) len)) (Nat.max 1 n0)) (mkL (RAn.ix t) (RAn.ca t))
  = Some (RAn.pc t' =? 2, mkL (RAn.ix t') (RAn.ca t'), []).
Proof.
  intros Hpc Hix Hs t t'. rewrite (tie_check_prod len _ _ _ Hix Hs Hmax).
  unfold t', RAn.stepP_a. rewrite Hpc. fold t. unfold msgP. fold t.
  destruct (Nat.max 1 n0 <=? RAn.ca t) eqn:E; cbn [RAn.P RAn.pc RAn.ix RAn.ca]; [reflexivity|].
  rewrite pavail_same. destruct (Nat.max 1 n0 <=? Ring.pavail len (RAn.ix t) _); reflexivity.
Qed.

Theorem machine_check_C c j n0 :
  RAn.pc (RAn.C c) = 0 -> RAn.ix (RAn.C c) < len -> RA.mval (msgC c j) < len ->
  let t := RAn.C c in let t' := RAn.C (RAn.stepC_a acqC len j n0 c) in
  run (g_check (mkE (RA.mval (msgC c j)) len) (g_cons_available (mkE (RA.mval (msgC c j)) len)) (Nat.max 1 n0)) (mkL (RAn.ix t) (RAn.ca t))
  = Some (RAn.pc t' =? 2, mkL (RAn.ix t') (RAn.ca t'), []).
Proof.
  intros Hpc Hix Hs t t'. rewrite (tie_check_cons len _ _ _ Hix Hs Hmax).
  unfold t', RAn.stepC_a. rewrite Hpc. fold t. unfold msgC. fold t.
  destruct (Nat.max 1 n0 <=? RAn.ca t) eqn:E; cbn [RAn.C RAn.pc RAn.ix RAn.ca]; [reflexivity|].
  rewrite dist_same. destruct (Nat.max 1 n0 <=? Ring.dist len (RAn.ix t) _); reflexivity.
Qed.

(** pc 3 = [advance(cnt)] of the source: new local index, new remembered availability, and THE VALUE STORED in the index word *)
Theorem machine_advance_P c j n0 succ :
  RAn.pc (RAn.P c) = 3 -> RAn.ix (RAn.P c) < len -> succ < len -> RAn.cnt (RAn.P c) <= len ->
  let t := RAn.P c in let c' := RAn.stepP_a acqP len j n0 c in let t' := RAn.P c' in
  run (g_advance (mkE succ len) (RAn.cnt t)) (mkL (RAn.ix t) (RAn.ca t))
  = Some (tt, mkL (RAn.ix t') (RAn.ca t'), [RA.mval (last (RAn.Mpi c') RA.dmsg)]).
Proof.
  intros Hpc Hix Hs Hn t c' t'. rewrite (tie_advance len succ _ _ Hix Hmax _ Hn).
  unfold t', c', RAn.stepP_a. rewrite Hpc. fold t. cbn [RAn.P RAn.Mpi RAn.ix RAn.ca].
  rewrite last_last. cbn [RA.mval]. rewrite wadd_same. reflexivity.
Qed.

Theorem machine_advance_C c j n0 succ :
  RAn.pc (RAn.C c) = 3 -> RAn.ix (RAn.C c) < len -> succ < len -> RAn.cnt (RAn.C c) <= len ->
  let t := RAn.C c in let c' := RAn.stepC_a acqC len j n0 c in let t' := RAn.C c' in
  run (g_advance (mkE succ len) (RAn.cnt t)) (mkL (RAn.ix t) (RAn.ca t))
  = Some (tt, mkL (RAn.ix t') (RAn.ca t'), [RA.mval (last (RAn.Mci c') RA.dmsg)]).
Proof.
  intros Hpc Hix Hs Hn t c' t'. rewrite (tie_advance len succ _ _ Hix Hmax _ Hn).
  unfold t', c', RAn.stepC_a. rewrite Hpc. fold t. cbn [RAn.C RAn.Mci RAn.ix RAn.ca].
  rewrite last_last. cbn [RA.mval]. rewrite wadd_same. reflexivity.
Qed.
End Tie.

Lemma read_val_lt len c M vi j : 0 < len -> Forall (msg_okn len c) M -> vi < length M ->
  RA.mval (nth (RA.pick vi (length M) j) M RA.dmsg) < len.
Proof.
  intros Hl F Hv. destruct (RA.pick_bounds vi (length M) j Hv) as [_ Hb].
  destruct (RAproof.Forall_nth_msg _ _ _ F Hb) as [E _]. rewrite E. apply Nat.mod_upper_bound; lia.
Qed.
Lemma window_le len t : pc_ok t -> RAn.pc t = 3 -> RAn.ca t + 1 <= len -> RAn.cnt t <= len.
Proof. intros [[E _]|[(E & _)|(_ & _ & E)]] H3 Hc; [congruence | congruence | lia]. Qed.

(** in every reachable state the side conditions hold: the four equalities above are unconditional along executions *)
Theorem machine_is_source_arithmetic : forall len script, 0 < len -> len + len < usize_max ->
  let c := RAn.exec_n len (RAn.init_n len) script in
  (forall j n0, RAn.pc (RAn.P c) = 0 ->
     run (g_check (mkE (RA.mval (msgP c j)) len) (g_prod_available (mkE (RA.mval (msgP c j)) len)) (Nat.max 1 n0)) (mkL (RAn.ix (RAn.P c)) (RAn.ca (RAn.P c)))
     = Some (RAn.pc (RAn.P (RAn.stepP_a true len j n0 c)) =? 2,
             mkL (RAn.ix (RAn.P (RAn.stepP_a true len j n0 c))) (RAn.ca (RAn.P (RAn.stepP_a true len j n0 c))), [])) /\
  (forall j n0, RAn.pc (RAn.C c) = 0 ->
     run (g_check (mkE (RA.mval (msgC c j)) len) (g_cons_available (mkE (RA.mval (msgC c j)) len)) (Nat.max 1 n0)) (mkL (RAn.ix (RAn.C c)) (RAn.ca (RAn.C c)))
     = Some (RAn.pc (RAn.C (RAn.stepC_a true len j n0 c)) =? 2,
             mkL (RAn.ix (RAn.C (RAn.stepC_a true len j n0 c))) (RAn.ca (RAn.C (RAn.stepC_a true len j n0 c))), [])) /\
  (forall j n0 succ, RAn.pc (RAn.P c) = 3 -> succ < len ->
     run (g_advance (mkE succ len) (RAn.cnt (RAn.P c))) (mkL (RAn.ix (RAn.P c)) (RAn.ca (RAn.P c)))
     = Some (tt, mkL (RAn.ix (RAn.P (RAn.stepP_a true len j n0 c))) (RAn.ca (RAn.P (RAn.stepP_a true len j n0 c))),
             [RA.mval (last (RAn.Mpi (RAn.stepP_a true len j n0 c)) RA.dmsg)])) /\
  (forall j n0 succ, RAn.pc (RAn.C c) = 3 -> succ < len ->
     run (g_advance (mkE succ len) (RAn.cnt (RAn.C c))) (mkL (RAn.ix (RAn.C c)) (RAn.ca (RAn.C c)))
     = Some (tt, mkL (RAn.ix (RAn.C (RAn.stepC_a true len j n0 c))) (RAn.ca (RAn.C (RAn.stepC_a true len j n0 c))),
             [RA.mval (last (RAn.Mci (RAn.stepC_a true len j n0 c)) RA.dmsg)])).
Proof.
  intros len script Hl Hmax c.
  pose proof (exec_invn len Hl script) as I. fold c in I.
  assert (HixP : RAn.ix (RAn.P c) < len) by (rewrite (i_ixP len c I); apply Nat.mod_upper_bound; lia).
  assert (HixC : RAn.ix (RAn.C c) < len) by (rewrite (i_ixC len c I); apply Nat.mod_upper_bound; lia).
  repeat match goal with |- _ /\ _ => split end.
  - intros j n0 Hpc. apply (machine_check_P true len Hmax c j n0 Hpc HixP).
    apply (read_val_lt len c _ _ j Hl (i_mci len c I)), (i_vP len c I).
  - intros j n0 Hpc. apply (machine_check_C true len Hmax c j n0 Hpc HixC).
    apply (read_val_lt len c _ _ j Hl (i_mpi len c I)), (i_vC len c I).
  - intros j n0 succ Hpc Hs. apply (machine_advance_P true len Hmax c j n0 succ Hpc HixP Hs).
    exact (window_le len _ (i_pcP len c I) Hpc (caP_cap len c I)).
  - intros j n0 succ Hpc Hs. apply (machine_advance_C true len Hmax c j n0 succ Hpc HixC Hs).
    exact (window_le len _ (i_pcC len c I) Hpc (caC_cap len c I)).
Qed.

(** three stages: the WORKER's request gate is [check] with [WorkIter::_available] on the value read from the producer's index *)
Section Tie3.
Variables (acqW : bool) (len : nat).
Hypothesis Hmax : len + len < usize_max.
Definition msgW (c : RA3n.cfg3n) (j : nat) : RA3.msg3 :=
  nth (RA.pick (RA3.vpi3 (RA3n.V3 (RA3n.W3 c))) (length (RA3n.Mpi3 c)) j) (RA3n.Mpi3 c) RA3.dmsg3.

Theorem machine_check_W c j n0 :
  RA3n.pc3 (RA3n.W3 c) = 0 -> RA3n.ix3 (RA3n.W3 c) < len -> RA3.mval3 (msgW c j) < len ->
  let t := RA3n.W3 c in let t' := RA3n.W3 (RA3n.stepW3_a acqW len j n0 c) in
  run (g_check (mkE (RA3.mval3 (msgW c j)) len) (g_work_available (mkE (RA3.mval3 (msgW c j)) len)) (Nat.max 1 n0)) (mkL (RA3n.ix3 t) (RA3n.ca3 t))
  = Some (RA3n.pc3 t' =? 2, mkL (RA3n.ix3 t') (RA3n.ca3 t'), []).
Proof.
  intros Hpc Hix Hs t t'. rewrite (tie_check_work len _ _ _ Hix Hs Hmax).
  unfold t', RA3n.stepW3_a. rewrite Hpc. fold t. unfold msgW. fold t.
  destruct (Nat.max 1 n0 <=? RA3n.ca3 t) eqn:E; cbn [RA3n.W3 RA3n.pc3 RA3n.ix3 RA3n.ca3]; [reflexivity|].
  rewrite dist_same. destruct (Nat.max 1 n0 <=? Ring.dist len (RA3n.ix3 t) _); reflexivity.
Qed.
End Tie3.
Print Assumptions machine_check_W.

(** the reset / detached machine RAx: [reset_index] (load, then jump and - attached - store), [Detached::reset_index] (no store),
    [Detached::advance] (local), [sync_index] / [attach] (store of the unchanged index) are the translated source functions *)
Section TieX.
Variables (acqC : bool) (len : nat).

Definition msgXC (c : RAx.cfg_x) (j : nat) : RA.msg :=
  nth (RA.pick (RA.vpi (RAx.V (RAx.C c))) (length (RAx.Mpi c)) j) (RAx.Mpi c) RA.dmsg.

(* Reset j at pc 0 followed by the consumer's next Op entry, attached: ConsIter::reset_index *)
Theorem machine_reset_attached c j j' n' :
  RAx.pc (RAx.C c) = 0 -> RAx.det (RAx.C c) = false ->
  let c2 := RAx.opC_a acqC len j' n' (RAx.resetC_a acqC j c) in
  run (g_cons_reset (mkE (RA.mval (msgXC c j)) len)) (mkL (RAx.ix (RAx.C c)) (RAx.ca (RAx.C c)))
  = Some (tt, mkL (RAx.ix (RAx.C c2)) (RAx.ca (RAx.C c2)), [RA.mval (last (RAx.Mci c2) RA.dmsg)]).
Proof.
  intros Hpc Hd c2. rewrite (proj1 (tie_reset len _ _ _)).
  unfold c2, RAx.opC_a, RAx.resetC_a. cbn [RAx.C RAx.pc RAx.nix RAx.npos]. unfold RAx.finishC. cbn [RAx.C RAx.det]. rewrite Hd.
  unfold RAx.publishC. cbn [RAx.C RAx.Mci RAx.ix RAx.ca]. rewrite last_last. reflexivity.
Qed.

(* the same while detached: Detached::reset_index - nothing is stored *)
Theorem machine_reset_detached c j j' n' :
  RAx.pc (RAx.C c) = 0 -> RAx.det (RAx.C c) = true ->
  let c2 := RAx.opC_a acqC len j' n' (RAx.resetC_a acqC j c) in
  run (g_dreset (mkE (RA.mval (msgXC c j)) len)) (mkL (RAx.ix (RAx.C c)) (RAx.ca (RAx.C c)))
  = Some (tt, mkL (RAx.ix (RAx.C c2)) (RAx.ca (RAx.C c2)), []) /\ RAx.Mci c2 = RAx.Mci c.
Proof.
  intros Hpc Hd c2. rewrite (tie_dreset len _ _ _).
  unfold c2, RAx.opC_a, RAx.resetC_a. cbn [RAx.C RAx.pc RAx.nix RAx.npos]. unfold RAx.finishC. cbn [RAx.C RAx.det]. rewrite Hd.
  unfold RAx.localC. cbn [RAx.C RAx.Mci RAx.ix RAx.ca]. split; reflexivity.
Qed.

(* the end of a detached operation: Detached::advance - local index and remembered availability only *)
Theorem machine_advance_detached c j n0 succ :
  RAx.pc (RAx.C c) = 3 -> RAx.det (RAx.C c) = true -> RAx.ix (RAx.C c) < len -> succ < len -> len + len < usize_max ->
  RAx.cnt (RAx.C c) <= len ->
  let c2 := RAx.opC_a acqC len j n0 c in
  run (g_dadvance (mkE succ len) (RAx.cnt (RAx.C c))) (mkL (RAx.ix (RAx.C c)) (RAx.ca (RAx.C c)))
  = Some (tt, mkL (RAx.ix (RAx.C c2)) (RAx.ca (RAx.C c2)), []) /\ RAx.Mci c2 = RAx.Mci c.
Proof.
  intros Hpc Hd Hix Hs Hmax Hn c2. rewrite (proj1 (tie_dadvance len succ _ _ Hix Hmax _ Hn)).
  unfold c2, RAx.opC_a. rewrite Hpc. unfold RAx.finishC. rewrite Hd. unfold RAx.localC. cbn [RAx.C RAx.Mci RAx.ix RAx.ca].
  rewrite wadd_same. split; reflexivity.
Qed.

(* Sync / Attach: sync_index stores the current local index and changes nothing else *)
Theorem machine_sync c succ :
  RAx.pc (RAx.C c) = 0 ->
  let c2 := RAx.stepC_a acqC len RAx.Sync c in let c3 := RAx.stepC_a acqC len RAx.Attach c in
  run (g_sync_index (mkE succ len)) (mkL (RAx.ix (RAx.C c)) (RAx.ca (RAx.C c)))
  = Some (tt, mkL (RAx.ix (RAx.C c2)) (RAx.ca (RAx.C c2)), [RA.mval (last (RAx.Mci c2) RA.dmsg)]) /\
  run (g_sync_index (mkE succ len)) (mkL (RAx.ix (RAx.C c)) (RAx.ca (RAx.C c)))
  = Some (tt, mkL (RAx.ix (RAx.C c3)) (RAx.ca (RAx.C c3)), [RA.mval (last (RAx.Mci c3) RA.dmsg)]).
Proof.
  intros Hpc c2 c3. rewrite (proj1 (tie_sync len succ _ _)).
  unfold c2, c3, RAx.stepC_a. rewrite Hpc. unfold RAx.publishC. cbn [RAx.C RAx.Mci RAx.ix RAx.ca]. rewrite !last_last. split; reflexivity.
Qed.
End TieX.

Print Assumptions machine_reset_attached.
Print Assumptions machine_reset_detached.
Print Assumptions machine_advance_detached.
Print Assumptions machine_sync.
Print Assumptions machine_is_source_arithmetic.
Print Assumptions machine_check_P.
Print Assumptions machine_check_C.
Print Assumptions machine_advance_P.
Print Assumptions machine_advance_C.
