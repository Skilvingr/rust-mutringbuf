(** * The two-stage release/acquire machine with the memory orderings as parameters:
      [acq]: index loads are (at least) Acquire - the loading thread joins the view of the message it reads;
      [rel]: index stores are (at least) Release - the message carries the storing thread's view.
      With both set it is the machine of RA.v (transfer lemma below); with either one off a racy execution exists. *)
From Coq Require Import List Arith.
Import ListNotations.
Require Import MRB.Conc.RA.
Require MRB.Conc.RAnproof.

Section MG.
Variables (acq rel : bool).
Definition vzero := mkV 0 0 0 0 0 0.
Variable len : nat.

Definition gstepP (j : nat) (c : cfg) : cfg :=
  let t := P c in
  match pc t with
  | 0 =>
    if 1 <=? ca t then mkC (Mpi c) (Mci c) (metas c) (mkT (ix t) (ca t) (V t) 2 (pos t)) (C c) (race c)
    else
      let i := pick (vci (V t)) (length (Mci c)) j in
      let m := nth i (Mci c) dmsg in
      let v0 := V t in
      let v1 := vjoin (mkV (vpi v0) i (kp v0) (kc v0) (wP v0) (wC v0)) (if acq then mview m else vzero) in
      let a := pavail len (ix t) (mval m) in
      mkC (Mpi c) (Mci c) (metas c) (mkT (ix t) a v1 (if 1 <=? a then 2 else 0) (pos t)) (C c) (race c)
  | 2 =>
    let mt := nth (ix t) (metas c) dmeta in
    let bad := negb (rclk mt <=? kc (V t)) in
    mkC (Mpi c) (Mci c) (upd (ix t) (mkMeta (pos t) (kp (V t)) (rpos mt) (rclk mt)) (metas c))
        (mkT (ix t) (ca t) (V t) 3 (pos t)) (C c) (race c || bad)
  | 3 =>
    let ix' := wadd len (ix t) 1 in
    let v0 := V t in
    let v1 := mkV (length (Mpi c)) (vci v0) (kp v0) (kc v0) (S (pos t)) (wC v0) in
    let m := mkM ix' (S (pos t)) (if rel then v1 else vzero) in
    mkC (Mpi c ++ [m]) (Mci c) (metas c)
        (mkT ix' (ca t - 1) (mkV (vpi v1) (vci v1) (S (kp v1)) (kc v1) (wP v1) (wC v1)) 0 (S (pos t)))
        (C c) (race c)
  | _ => c
  end.

Definition gstepC (j : nat) (c : cfg) : cfg :=
  let t := C c in
  match pc t with
  | 0 =>
    if 1 <=? ca t then mkC (Mpi c) (Mci c) (metas c) (P c) (mkT (ix t) (ca t) (V t) 2 (pos t)) (race c)
    else
      let i := pick (vpi (V t)) (length (Mpi c)) j in
      let m := nth i (Mpi c) dmsg in
      let v0 := V t in
      let v1 := vjoin (mkV i (vci v0) (kp v0) (kc v0) (wP v0) (wC v0)) (if acq then mview m else vzero) in
      let a := dist len (ix t) (mval m) in
      mkC (Mpi c) (Mci c) (metas c) (P c) (mkT (ix t) a v1 (if 1 <=? a then 2 else 0) (pos t)) (race c)
  | 2 =>
    let mt := nth (ix t) (metas c) dmeta in
    let bad := negb (wclk mt <=? kp (V t)) in
    mkC (Mpi c) (Mci c) (upd (ix t) (mkMeta (wpos mt) (wclk mt) (pos t) (kc (V t))) (metas c))
        (P c) (mkT (ix t) (ca t) (V t) 3 (pos t)) (race c || bad)
  | 3 =>
    let ix' := wadd len (ix t) 1 in
    let v0 := V t in
    let v1 := mkV (vpi v0) (length (Mci c)) (kp v0) (kc v0) (wP v0) (S (pos t)) in
    let m := mkM ix' (S (pos t)) (if rel then v1 else vzero) in
    mkC (Mpi c) (Mci c ++ [m]) (metas c) (P c)
        (mkT ix' (ca t - 1) (mkV (vpi v1) (vci v1) (kp v1) (S (kc v1)) (wP v1) (wC v1)) 0 (S (pos t)))
        (race c)
  | _ => c
  end.

Definition gstep (c : cfg) (s : bool * nat) : cfg :=
  if fst s then gstepP (snd s) c else gstepC (snd s) c.
Definition gexec (c : cfg) (script : list (bool * nat)) : cfg := fold_left gstep script c.

Definition gv0P := mkV 0 0 1 0 len len.
Definition gv0C := mkV 0 0 0 1 len len.
Definition gvbot := mkV 0 0 0 0 len len.
Definition ginit : cfg :=
  mkC [mkM 0 len gvbot] [mkM 0 len gvbot]
      (map (fun k => mkMeta k 0 k 0) (seq 0 len))
      (mkT 0 0 gv0P 0 len) (mkT 0 0 gv0C 0 len) false.

End MG.

Lemma gstep_strong len c s : gstep true true len c s = step len c s.
Proof.
  unfold gstep, step, gstepP, stepP, gstepC, stepC. destruct (fst s); reflexivity.
Qed.

Lemma gexec_strong len script : forall c, gexec true true len c script = exec len c script.
Proof. induction script as [|s r IH]; intros c; simpl; auto. Qed.

(** race freedom for every execution of the two-stage pipeline whose index accesses are acquire / release *)
Theorem g_race_free acq rel : acq = true -> rel = true ->
  forall len script, 0 < len -> race (gexec acq rel len (ginit len) script) = false.
Proof. intros -> -> len script Hl. rewrite gexec_strong. exact (RAnproof.spsc_race_free len script Hl). Qed.

(** non-vacuity of the detector and of the hypothesis: with a relaxed consumer load there is a racy execution
    (message passing: the consumer reads the published index without acquiring the slot write) *)
Example relaxed_load_races : race (gexec false true 2 (ginit 2) [(true, 0); (true, 0); (true, 0); (false, 1); (false, 0)]) = true.
Proof. vm_compute. reflexivity. Qed.
Example relaxed_store_races : race (gexec true false 2 (ginit 2) [(true, 0); (true, 0); (true, 0); (false, 1); (false, 0)]) = true.
Proof. vm_compute. reflexivity. Qed.
