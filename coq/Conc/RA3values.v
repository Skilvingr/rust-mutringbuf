(** * C02 on the three-stage release/acquire machine: what the consumer reads.

    Values are threaded alongside the machine of RA3.v: the producer stores the [p]-th value [pv p] at position [p],
    the worker replaces the value it finds by [f] of it, the consumer appends what it reads to its log.
    For every interleaving and every admissible stale read the consumer's log is, at every moment, the list
    [f (pv len); f (pv (len+1)); ...] - a prefix of the pushed sequence with the worker's transformation applied
    item by item, in order, nothing lost, duplicated or seen half-processed.

    RA3.v is RA3n.v with every requested count 1 (RA3nproof.v), and the values here are those RA3nvalues.v threads
    along such an execution: the theorem is the multi-slot one read through that correspondence. *)
From Coq Require Import List Arith Lia.
Import ListNotations.
Require Import MRB.Conc.RA MRB.Conc.RA3.
Require MRB.Conc.RA3nvalues.

Section Values.
Variable len : nat.
Hypothesis Hlen : 0 < len.
Variables (pv f : nat -> nat) (init : nat -> nat).

Record vst := mkVst { vals : list nat; clog : list nat }.

Definition vstep (c : cfg3) (s : tid * nat) (v : vst) : vst :=
  match fst s with
  | TP => if pc3 (P3 c) =? 2 then mkVst (upd (ix3 (P3 c)) (pv (pos3 (P3 c))) (vals v)) (clog v) else v
  | TW => if pc3 (W3 c) =? 2 then mkVst (upd (ix3 (W3 c)) (f (nth (ix3 (W3 c)) (vals v) 0)) (vals v)) (clog v) else v
  | TC => if pc3 (C3 c) =? 2 then mkVst (vals v) (clog v ++ [nth (ix3 (C3 c)) (vals v) 0]) else v
  end.

Fixpoint vexec (c : cfg3) (v : vst) (script : list (tid * nat)) : cfg3 * vst :=
  match script with
  | [] => (c, v)
  | s :: r => vexec (step3 len c s) (vstep c s v) r
  end.

Definition vinit0 : vst := mkVst (map init (seq 0 len)) [].

(** positions whose access has been performed *)
Definition done (t : thr3) : nat := pos3 t + (if pc3 t =? 3 then 1 else 0).

Import RA3nproof.

Definition v1 (w : RA3nvalues.vst) : vst := mkVst (RA3nvalues.vals w) (RA3nvalues.clog w).

(* the one slot of the window is slot [ix] at position [pos] *)
Lemma vstep_forget3n d s w : RA3nproof.Inv3n len d -> unit3n d ->
  vstep (forget3n d) s (v1 w) = v1 (RA3nvalues.vstep_n len pv f d (unit_entry3 s) w).
Proof.
  intros I (SP & SW & SC).
  assert (B : forall p, p mod len < len) by (intros; apply Nat.mod_upper_bound; lia).
  destruct s as [[| |] j]; unfold vstep, RA3nvalues.vstep_n; cbn [unit_entry3 fst snd forget3n forget_t3n P3 W3 C3 pc3 ix3 pos3].
  - unfold RA3nvalues.vstepP. destruct (RA3n.pc3 (RA3n.P3 d) =? 2) eqn:E; [apply Nat.eqb_eq in E | reflexivity].
    destruct SP as [[H _]|[(_ & Ho & _)|(H & _)]]; try congruence.
    unfold RA3nvalues.slot, RA3nvalues.fr. rewrite Ho, wadd_0, Nat.add_0_r; [reflexivity|].
    rewrite (k_ixP len d I); apply B.
  - unfold RA3nvalues.vstepW. destruct (RA3n.pc3 (RA3n.W3 d) =? 2) eqn:E; [apply Nat.eqb_eq in E | reflexivity].
    destruct SW as [[H _]|[(_ & Ho & _)|(H & _)]]; try congruence.
    unfold RA3nvalues.slot. rewrite Ho, wadd_0; [reflexivity|].
    rewrite (k_ixW len d I); apply B.
  - unfold RA3nvalues.vstepC. destruct (RA3n.pc3 (RA3n.C3 d) =? 2) eqn:E; [apply Nat.eqb_eq in E | reflexivity].
    destruct SC as [[H _]|[(_ & Ho & _)|(H & _)]]; try congruence.
    unfold RA3nvalues.slot. rewrite Ho, wadd_0; [reflexivity|].
    rewrite (k_ixC len d I); apply B.
Qed.

Lemma vexec_forget3n script : forall d w, RA3nproof.Inv3n len d -> unit3n d ->
  let r := RA3nvalues.vexec_n len pv f d w (map unit_entry3 script) in
  vexec (forget3n d) (v1 w) script = (forget3n (fst r), v1 (snd r)) /\ unit3n (fst r).
Proof.
  induction script as [|s r IH]; intros d w I S; [split; [reflexivity | exact S]|].
  destruct (forget3n_step len d s Hlen I S) as [E S'].
  cbn [map vexec RA3nvalues.vexec_n]. rewrite <- E, (vstep_forget3n d s w I S).
  apply IH; [apply step3n_inv|]; assumption.
Qed.

Lemma done_forget3n t : unit_t3n t -> done (forget_t3n t) = RA3nvalues.fr t.
Proof.
  unfold done, RA3nvalues.fr. cbn [forget_t3n pc3 pos3].
  intros [[H Ho]|[(H & Ho & _)|(H & Ho & _)]]; rewrite H, Ho; reflexivity.
Qed.

Lemma vexec_fst script : forall c v, fst (vexec c v script) = exec3 len c script.
Proof. induction script as [|s r IH]; intros; simpl; auto. Qed.
End Values.

(** the consumed sequence is always a prefix of the pushed sequence with the worker's transformation applied *)
Theorem consumed_is_prefix len pv f init script : 0 < len ->
  let '(c, v) := vexec len pv f (init3 len) (vinit0 len init) script in
  clog v = map (fun p => f (pv p)) (seq len (done (C3 c) - len)) /\ race3 c = false.
Proof.
  intros Hl.
  pose proof (RA3nvalues.consumed_is_prefix_n len pv f init (map RA3nproof.unit_entry3 script) Hl) as H.
  destruct (vexec_forget3n len Hl pv f script (RA3n.init3_n len) (RA3nvalues.vinit0 len init)
              (RA3nproof.init3n_inv len Hl)) as [E (_ & _ & S)]; [repeat split; left; auto|].
  change (vexec len pv f (init3 len) (vinit0 len init) script) with
    (vexec len pv f (RA3nproof.forget3n (RA3n.init3_n len)) (v1 (RA3nvalues.vinit0 len init)) script).
  rewrite E. destruct (RA3nvalues.vexec_n len pv f (RA3n.init3_n len) (RA3nvalues.vinit0 len init) _) as [d w].
  destruct H as (_ & L & R). cbn [fst snd] in *. split; [|exact R].
  cbn [clog v1 RA3nproof.forget3n C3]. rewrite (done_forget3n _ S). exact L.
Qed.
Print Assumptions consumed_is_prefix.
