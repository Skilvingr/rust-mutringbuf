(** * Race freedom of the multi-slot two-stage release/acquire machine (RAn.v),
      and of the single-slot machine (RA.v).

    [spsc_n_race_free : forall len script, 0 < len -> race (exec_n len (init_n len) script) = false].

    No step is examined here.  RAn.v is RAx.v restricted to [Op] commands with the consumer attached ([embed_n]),
    the invariant [InvN c] says of [c] what [InvX] (RAxproof.v, where it is explained) says of [embed_n c]
    - attached, the published position IS the local one, and pc 5 does not occur -, and a step commutes with
    [embed_n]: every fact about RAn.v is an instance of the fact about RAx.v.
    In the same way RA.v is RAn.v with every requested count 1 ([forget_n], at the end). *)
Require Import MRB.Conc.RA MRB.Conc.RAproof MRB.Conc.RAn.
Require MRB.Conc.RAxproof.
From Coq Require Import List Arith.

(* The configuration of RAx.v with the same contents: consumer attached, no reset in progress. *)
Definition embed_tn (t : thr_n) : RAx.thr_x :=
  RAx.mkTx (ix t) (ca t) (V t) (pc t) (pos t) (cnt t) (off t) false 0 0.
Definition embed_n (c : cfg_n) : RAx.cfg_x :=
  RAx.mkCx (Mpi c) (Mci c) (metas c) (embed_tn (P c)) (embed_tn (C c)) (race c).
Definition entry_n (s : bool * nat * nat) : bool * RAx.cmd := let '(b, j, n) := s in (b, RAx.Op j n).

Section InvN.
Variable len : nat.
Hypothesis Hlen : 0 < len.

Definition mtn (c : cfg_n) (k : nat) : meta := nth k (metas c) dmeta.

Definition view_okn (c : cfg_n) (v : view) : Prop :=
  vpi v < length (Mpi c) /\ vci v < length (Mci c) /\
  wP v <= pos (P c) /\ wC v <= pos (C c) /\
  mabs (nth (vpi v) (Mpi c) dmsg) <= wP v /\
  mabs (nth (vci v) (Mci c) dmsg) <= wC v /\
  (forall k, k < len -> wpos (mtn c k) < wP v -> wclk (mtn c k) <= kp v) /\
  (forall k, k < len -> rpos (mtn c k) < wC v -> rclk (mtn c k) <= kc v).

Definition msg_okn (c : cfg_n) (m : msg) : Prop :=
  mval m = mabs m mod len /\ view_okn c (mview m).

Definition seenPn (c : cfg_n) := mabs (nth (vci (V (P c))) (Mci c) dmsg).
Definition seenCn (c : cfg_n) := mabs (nth (vpi (V (C c))) (Mpi c) dmsg).

(* pc 0: no window; pc 2: window granted, [off] slots done, more to do; pc 3: window done, not yet published *)
Definition pc_ok (t : thr_n) : Prop :=
  (pc t = 0 /\ off t = 0) \/
  (pc t = 2 /\ off t < cnt t /\ cnt t <= ca t) \/
  (pc t = 3 /\ off t = cnt t /\ cnt t <= ca t).

Record InvN (c : cfg_n) : Prop := mkInvN {
  i_metas : length (metas c) = len;
  i_npi : 0 < length (Mpi c);
  i_nci : 0 < length (Mci c);
  i_spi : sorted (Mpi c);
  i_sci : sorted (Mci c);
  i_lpi : lastabs (Mpi c) = pos (P c);
  i_lci : lastabs (Mci c) = pos (C c);
  i_mpi : Forall (msg_okn c) (Mpi c);
  i_mci : Forall (msg_okn c) (Mci c);
  i_wpi : forall i, i < length (Mpi c) -> mabs (nth i (Mpi c) dmsg) <= wP (mview (nth i (Mpi c) dmsg));
  i_wci : forall i, i < length (Mci c) -> mabs (nth i (Mci c) dmsg) <= wC (mview (nth i (Mci c) dmsg));
  i_vP : view_okn c (V (P c));
  i_vC : view_okn c (V (C c));
  i_ixP : ix (P c) = pos (P c) mod len;
  i_ixC : ix (C c) = pos (C c) mod len;
  i_caP : ca (P c) + pos (P c) + 1 <= seenPn c + len;
  i_caC : ca (C c) + pos (C c) <= seenCn c;
  i_pcP : pc_ok (P c);
  i_pcC : pc_ok (C c);
  i_slot : forall k, k < len ->
     wpos (mtn c k) mod len = k /\ rpos (mtn c k) mod len = k /\
     wpos (mtn c k) < pos (P c) + off (P c) /\ rpos (mtn c k) < pos (C c) + off (C c) /\
     wclk (mtn c k) <= kp (V (P c)) /\ rclk (mtn c k) <= kc (V (C c));
  i_race : race c = false
}.

(* RAx.v gives pc 5 a meaning (the store of a reset); RAn.v never gets there. *)
Lemma embed_n_step c s : pc (C c) <> 5 ->
  embed_n (step_n len c s) = RAx.step_x len (embed_n c) (entry_n s) /\ pc (C (step_n len c s)) <> 5.
Proof.
  intros H5. destruct s as [[[|] j] n]; unfold step_n, step_a, RAx.step_x, RAx.step_a; simpl.
  - unfold stepP_a, RAx.opP_a; simpl.
    destruct (pc (P c)) as [|[|[|[|q]]]]; simpl; try (split; [reflexivity | exact H5]).
    destruct (_ <=? _); split; [reflexivity | exact H5 | reflexivity | exact H5].
  - unfold stepC_a, RAx.opC_a; simpl.
    destruct (pc (C c)) as [|[|[|[|[|[|q]]]]]] eqn:E; simpl; try (split; [reflexivity | congruence]).
    + destruct (_ <=? _); simpl; [|destruct (_ <=? _)]; (split; [reflexivity | discriminate]).
    + destruct (_ <=? _); (split; [reflexivity | discriminate]).
    + contradiction.
Qed.

Lemma invn_invx c : InvN c -> RAxproof.InvX len (embed_n c).
Proof.
  intros I. pose proof (Nat.eq_le_incl _ _ (i_lci c I)) as Hle.
  destruct I. constructor; try assumption.
  - intros _. assumption.
  - left. assumption.
Qed.

Lemma invx_invn c : RAxproof.InvX len (embed_n c) -> pc (C c) <> 5 -> InvN c.
Proof.
  intros I H5.
  pose proof (RAxproof.i_att _ _ I eq_refl) as Hatt.
  destruct (RAxproof.i_pcC _ _ I) as [Hpc|[Hpc _]]; [|contradiction].
  destruct I. constructor; assumption.
Qed.

Lemma step_invn c s : InvN c -> InvN (step_n len c s).
Proof.
  intros I.
  assert (H5 : pc (C c) <> 5) by (destruct (i_pcC c I) as [[E _]|[[E _]|[E _]]]; rewrite E; discriminate).
  destruct (embed_n_step c s H5) as [E H5'].
  apply invx_invn; [rewrite E | exact H5'].
  apply (RAxproof.step_invx len Hlen), invn_invx, I.
Qed.

Lemma init_invn : InvN (init_n len).
Proof. apply invx_invn; [exact (RAxproof.init_invx len Hlen) | discriminate]. Qed.

Theorem exec_invn script : InvN (exec_n len (init_n len) script).
Proof.
  exact (fold_left_inv _ InvN step_invn script _ init_invn).
Qed.

Lemma behindn c : InvN c ->
  ca (C c) + pos (C c) <= pos (P c) /\ ca (P c) + pos (P c) + 1 <= pos (C c) + len.
Proof.
  intros I. pose proof (RAxproof.behindx len (embed_n c) (invn_invx c I)) as H.
  cbn [embed_n RAx.Mci] in H. rewrite (i_lci c I) in H. exact H.
Qed.
Lemma caP_cap c : InvN c -> ca (P c) + 1 <= len.
Proof. intros I. exact (RAxproof.caP_cap len _ (invn_invx c I)). Qed.
Lemma caC_cap c : InvN c -> ca (C c) + 1 <= len.
Proof. intros I. exact (RAxproof.caC_cap len _ (invn_invx c I)). Qed.
End InvN.

(* Every release/acquire-consistent execution of the multi-slot machine
   (any interleaving, any stale read, any sequence of requested window sizes) is race free. *)
Theorem spsc_n_race_free : forall len script, 0 < len -> race (exec_n len (init_n len) script) = false.
Proof. intros len script Hl. apply (i_race len _ (exec_invn len Hl script)). Qed.
Print Assumptions spsc_n_race_free.

Definition forget_tn (t : thr_n) : RA.thr := RA.mkT (ix t) (ca t) (V t) (pc t) (pos t).
Definition forget_n (c : cfg_n) : RA.cfg :=
  RA.mkC (Mpi c) (Mci c) (metas c) (forget_tn (P c)) (forget_tn (C c)) (race c).

(* What a thread of RAn.v remembers beyond RA.v's when every count is 1: a granted window is the one slot
   at [ix] ([wadd len ix 0 = ix] wants [ix < len]). *)
Definition unit_tn (len : nat) (t : thr_n) : Prop :=
  ix t < len /\ (pc t = 2 -> cnt t = 1 /\ off t = 0) /\ (pc t = 3 -> cnt t = 1).

Lemma forget_n_stepP len c j : unit_tn len (P c) ->
  let c' := stepP_n len j 1 c in
  forget_n c' = RA.stepP len j (forget_n c) /\ unit_tn len (P c') /\ C c' = C c.
Proof.
  intros (Hi & H2 & H3). unfold stepP_n, stepP_a, RA.stepP, unit_tn.
  change (RA.pc (RA.P (forget_n c))) with (pc (P c)).
  destruct (pc (P c)) as [|[|[|[|q]]]] eqn:E; cbv zeta.
  - change (RA.ca (RA.P (forget_n c))) with (ca (P c)). change (Nat.max 1 1) with 1.
    destruct (1 <=? ca (P c)); cbn [P C pc cnt off ix]; repeat split; auto.
  - rewrite E. repeat split; auto; discriminate.
  - destruct (H2 eq_refl) as [E1 E2]. rewrite E1, E2, (wadd_0 len _ Hi), Nat.add_0_r.
    cbn [P C pc cnt off ix]. repeat split; auto; discriminate.
  - rewrite (H3 eq_refl), Nat.add_1_r.
    cbn [P C pc cnt off ix]. repeat split; auto using wadd_1_lt; discriminate.
  - rewrite E. repeat split; auto; discriminate.
Qed.

Lemma forget_n_stepC len c j : unit_tn len (C c) ->
  let c' := stepC_n len j 1 c in
  forget_n c' = RA.stepC len j (forget_n c) /\ unit_tn len (C c') /\ P c' = P c.
Proof.
  intros (Hi & H2 & H3). unfold stepC_n, stepC_a, RA.stepC, unit_tn.
  change (RA.pc (RA.C (forget_n c))) with (pc (C c)).
  destruct (pc (C c)) as [|[|[|[|q]]]] eqn:E; cbv zeta.
  - change (RA.ca (RA.C (forget_n c))) with (ca (C c)). change (Nat.max 1 1) with 1.
    destruct (1 <=? ca (C c)); cbn [P C pc cnt off ix]; repeat split; auto.
  - rewrite E. repeat split; auto; discriminate.
  - destruct (H2 eq_refl) as [E1 E2]. rewrite E1, E2, (wadd_0 len _ Hi), Nat.add_0_r.
    cbn [P C pc cnt off ix]. repeat split; auto; discriminate.
  - rewrite (H3 eq_refl), Nat.add_1_r.
    cbn [P C pc cnt off ix]. repeat split; auto using wadd_1_lt; discriminate.
  - rewrite E. repeat split; auto; discriminate.
Qed.

Lemma forget_n_exec len script : forall c, unit_tn len (P c) -> unit_tn len (C c) ->
  forget_n (exec_n len c (map (fun s => (fst s, snd s, 1)) script)) = RA.exec len (forget_n c) script.
Proof.
  induction script as [|[[|] j] script IH]; intros c UP UC; [reflexivity| |]; simpl.
  - destruct (forget_n_stepP len c j UP) as (E & UP' & EC).
    unfold RA.step; simpl. rewrite <- E. apply IH; [exact UP' | rewrite EC; exact UC].
  - destruct (forget_n_stepC len c j UC) as (E & UC' & EP).
    unfold RA.step; simpl. rewrite <- E. apply IH; [rewrite EP; exact UP | exact UC'].
Qed.

(* Every release/acquire-consistent execution (any interleaving, any stale read) is race free. *)
Theorem spsc_race_free : forall len script, 0 < len -> RA.race (exec len (init len) script) = false.
Proof.
  intros len script Hl. change (init len) with (forget_n (init_n len)).
  rewrite <- forget_n_exec; [apply spsc_n_race_free, Hl | |]; (split; [exact Hl | split; discriminate]).
Qed.
Print Assumptions spsc_race_free.
