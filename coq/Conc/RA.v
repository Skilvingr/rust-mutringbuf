(* SPSC ring buffer under a release/acquire view machine, single-slot operations:
   2 threads (P pushes single items, C pops), arbitrary len, arbitrary script
   (interleaving x stale-read choices).  Every machine of this directory is built from what is defined here. *)
From Coq Require Import List Arith Lia Sorted.
Import ListNotations.
Require MRB.Base.Ring.

Ltac splits := repeat match goal with |- _ /\ _ => split end.

Definition wadd (len i n : nat) : nat := if len <=? i + n then i + n - len else i + n.
Definition dist (len a b : nat) : nat := if a <=? b then b - a else len - a + b.
Definition pavail (len p c : nat) : nat := if p <? c then c - p - 1 else len - p + c - 1.

Lemma wadd_mod len a n : 0 < len -> n <= len -> wadd len (a mod len) n = (a + n) mod len.
Proof. exact (Ring.wadd_mod len a n). Qed.

Lemma dist_mod len a b : 0 < len -> a <= b -> b - a < len -> dist len (a mod len) (b mod len) = b - a.
Proof. exact (Ring.dist_mod len a b). Qed.

Lemma pavail_mod len p c : 0 < len -> c <= p -> p - c < len ->
  pavail len (p mod len) (c mod len) = len - 1 - (p - c).
Proof. exact (Ring.pavail_mod len p c). Qed.

Lemma fold_left_inv {A B} (f : A -> B -> A) (I : A -> Prop) :
  (forall c s, I c -> I (f c s)) -> forall l c, I c -> I (fold_left f l c).
Proof. intros H l. induction l; simpl; auto. Qed.

Lemma nth_app_l {A} (M : list A) x d i : i < length M -> nth i (M ++ [x]) d = nth i M d.
Proof. intros; apply app_nth1; auto. Qed.
Lemma nth_app_last {A} (M : list A) x d : nth (length M) (M ++ [x]) d = x.
Proof. rewrite app_nth2 by lia. rewrite Nat.sub_diag. reflexivity. Qed.
Lemma nth_pred_last {A} (M : list A) d : nth (length M - 1) M d = last M d.
Proof.
  induction M as [|x [|y M] IH]; [reflexivity | reflexivity |].
  cbn [length] in *. rewrite Nat.sub_succ, Nat.sub_0_r in *. exact IH.
Qed.
Lemma sorted_snoc {A} (f : A -> nat) d M x :
  (forall i j, i <= j -> j < length M -> f (nth i M d) <= f (nth j M d)) -> f (nth (length M - 1) M d) <= f x ->
  forall i j, i <= j -> j < length (M ++ [x]) -> f (nth i (M ++ [x]) d) <= f (nth j (M ++ [x]) d).
Proof.
  intros Hs Hl i j Hij Hj. rewrite app_length in Hj; simpl in Hj.
  destruct (Nat.eq_dec j (length M)) as [->|Hne].
  - rewrite nth_app_last.
    destruct (Nat.eq_dec i (length M)) as [->|Hi].
    + rewrite nth_app_last; lia.
    + rewrite nth_app_l by lia.
      specialize (Hs i (length M - 1) ltac:(lia) ltac:(lia)). lia.
  - rewrite !nth_app_l by lia. apply Hs; lia.
Qed.

Lemma wadd_0 len i : i < len -> wadd len i 0 = i.
Proof. intros H. unfold wadd. rewrite Nat.add_0_r. destruct (Nat.leb_spec len i); [lia | reflexivity]. Qed.
Lemma wadd_1_lt len i : i < len -> wadd len i 1 < len.
Proof. intros H. unfold wadd. destruct (Nat.leb_spec len (i + 1)); lia. Qed.

Lemma Forall_app1 {A} (Q : A -> Prop) l x : Forall Q l -> Q x -> Forall Q (l ++ [x]).
Proof. intros; apply Forall_app; split; auto. Qed.

Lemma ssorted_snoc (l : list nat) (x : nat) :
  StronglySorted lt l -> Forall (fun y => y < x) l -> StronglySorted lt (l ++ [x]).
Proof.
  intros S. induction S as [|a l S IH Ha]; intros F; cbn [app].
  - constructor; constructor.
  - inversion F as [|a' l' Fa Fl]; subst. constructor.
    + apply IH; exact Fl.
    + apply Forall_app; split; [exact Ha | constructor; [exact Fa | constructor]].
Qed.

Lemma ssorted_nth_lt (l : list nat) : StronglySorted lt l ->
  forall i j, i < j < length l -> nth i l 0 < nth j l 0.
Proof.
  intros S. induction S as [|a l S IH Ha]; intros i j Hij; cbn [length] in Hij; [lia|].
  destruct j as [|j]; [lia|]. destruct i as [|i]; cbn [nth].
  - rewrite Forall_forall in Ha. apply Ha. apply nth_In. lia.
  - apply IH. lia.
Qed.

Fixpoint upd {A} (k : nat) (x : A) (l : list A) : list A :=
  match l, k with
  | [], _ => []
  | _ :: t, 0 => x :: t
  | h :: t, S k' => h :: upd k' x t
  end.
Lemma upd_length {A} k (x : A) l : length (upd k x l) = length l.
Proof. revert k; induction l; destruct k; simpl; auto. Qed.
Lemma nth_upd_eq {A} k (x d : A) l : k < length l -> nth k (upd k x l) d = x.
Proof. revert k; induction l; destruct k; simpl; intros; try lia; auto. apply IHl; lia. Qed.
Lemma nth_upd_neq {A} k j (x d : A) l : k <> j -> nth j (upd k x l) d = nth j l d.
Proof. revert k j; induction l; destruct k, j; simpl; intros; try lia; auto. Qed.
Lemma nth_upd_if {A} k j (x d : A) l :
  k < length l -> nth j (upd k x l) d = if Nat.eqb k j then x else nth j l d.
Proof.
  intros H. destruct (Nat.eqb_spec k j) as [->|Hne]; [apply nth_upd_eq | apply nth_upd_neq]; auto.
Qed.

Record view := mkV { vpi : nat; vci : nat; kp : nat; kc : nat; wP : nat; wC : nat }.
Definition vjoin (a b : view) : view :=
  mkV (max (vpi a) (vpi b)) (max (vci a) (vci b)) (max (kp a) (kp b)) (max (kc a) (kc b))
      (max (wP a) (wP b)) (max (wC a) (wC b)).
Record msg := mkM { mval : nat; mabs : nat; mview : view }.
Record meta := mkMeta { wpos : nat; wclk : nat; rpos : nat; rclk : nat }.
Record thr := mkT { ix : nat; ca : nat; V : view; pc : nat; pos : nat }.
Record cfg := mkC { Mpi : list msg; Mci : list msg; metas : list meta; P : thr; C : thr; race : bool }.

Definition dmsg := mkM 0 0 (mkV 0 0 0 0 0 0).
Definition dmeta := mkMeta 0 0 0 0.
Definition pick (lo n j : nat) : nat := Nat.min (Nat.max j lo) (n - 1).
Lemma pick_bounds lo n j : lo < n -> lo <= pick lo n j /\ pick lo n j < n.
Proof. unfold pick; intros; lia. Qed.

Section M.
Variable len : nat.

Definition stepP (j : nat) (c : cfg) : cfg :=
  let t := P c in
  match pc t with
  | 0 =>
    if 1 <=? ca t then mkC (Mpi c) (Mci c) (metas c) (mkT (ix t) (ca t) (V t) 2 (pos t)) (C c) (race c)
    else
      let i := pick (vci (V t)) (length (Mci c)) j in
      let m := nth i (Mci c) dmsg in
      let v0 := V t in
      let v1 := vjoin (mkV (vpi v0) i (kp v0) (kc v0) (wP v0) (wC v0)) (mview m) in
      let a := pavail len (ix t) (mval m) in
      mkC (Mpi c) (Mci c) (metas c) (mkT (ix t) a v1 (if 1 <=? a then 2 else 0) (pos t)) (C c) (race c)
  | 2 =>
    let mt := nth (ix t) (metas c) dmeta in
    let bad := negb (rclk mt <=? kc (V t)) in
    mkC (Mpi c) (Mci c) (upd (ix t) (mkMeta (pos t) (kp (V t)) (rpos mt) (rclk mt)) (metas c))
        (mkT (ix t) (ca t) (V t) 3 (pos t)) (C c) (race c || bad)
  | 3 =>
    let ix' := wadd len (ix t) 1 in
    let v0 := V t in
    let v1 := mkV (length (Mpi c)) (vci v0) (kp v0) (kc v0) (S (pos t)) (wC v0) in
    let m := mkM ix' (S (pos t)) v1 in
    mkC (Mpi c ++ [m]) (Mci c) (metas c)
        (mkT ix' (ca t - 1) (mkV (vpi v1) (vci v1) (S (kp v1)) (kc v1) (wP v1) (wC v1)) 0 (S (pos t)))
        (C c) (race c)
  | _ => c
  end.

Definition stepC (j : nat) (c : cfg) : cfg :=
  let t := C c in
  match pc t with
  | 0 =>
    if 1 <=? ca t then mkC (Mpi c) (Mci c) (metas c) (P c) (mkT (ix t) (ca t) (V t) 2 (pos t)) (race c)
    else
      let i := pick (vpi (V t)) (length (Mpi c)) j in
      let m := nth i (Mpi c) dmsg in
      let v0 := V t in
      let v1 := vjoin (mkV i (vci v0) (kp v0) (kc v0) (wP v0) (wC v0)) (mview m) in
      let a := dist len (ix t) (mval m) in
      mkC (Mpi c) (Mci c) (metas c) (P c) (mkT (ix t) a v1 (if 1 <=? a then 2 else 0) (pos t)) (race c)
  | 2 =>
    let mt := nth (ix t) (metas c) dmeta in
    let bad := negb (wclk mt <=? kp (V t)) in
    mkC (Mpi c) (Mci c) (upd (ix t) (mkMeta (wpos mt) (wclk mt) (pos t) (kc (V t))) (metas c))
        (P c) (mkT (ix t) (ca t) (V t) 3 (pos t)) (race c || bad)
  | 3 =>
    let ix' := wadd len (ix t) 1 in
    let v0 := V t in
    let v1 := mkV (vpi v0) (length (Mci c)) (kp v0) (kc v0) (wP v0) (S (pos t)) in
    let m := mkM ix' (S (pos t)) v1 in
    mkC (Mpi c) (Mci c ++ [m]) (metas c) (P c)
        (mkT ix' (ca t - 1) (mkV (vpi v1) (vci v1) (kp v1) (S (kc v1)) (wP v1) (wC v1)) 0 (S (pos t)))
        (race c)
  | _ => c
  end.

Definition step (c : cfg) (s : bool * nat) : cfg :=
  if fst s then stepP (snd s) c else stepC (snd s) c.
Definition exec (c : cfg) (script : list (bool * nat)) : cfg := fold_left step script c.

Definition v0P := mkV 0 0 1 0 len len.
Definition v0C := mkV 0 0 0 1 len len.
Definition vbot := mkV 0 0 0 0 len len.
Definition init : cfg :=
  mkC [mkM 0 len vbot] [mkM 0 len vbot]
      (map (fun k => mkMeta k 0 k 0) (seq 0 len))
      (mkT 0 0 v0P 0 len) (mkT 0 0 v0C 0 len) false.

End M.
