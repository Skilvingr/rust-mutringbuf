(** * What the invariant proofs of the two-stage view machines share:
      sorted message lists, and when a view is good for a configuration.

    The invariant itself is proved once, for the most general machine (RAxproof.v); RAnproof.v obtains the
    multi-slot machine and the single-slot machine of RA.v from it. *)
Require Import MRB.Conc.RA.
From Coq Require Import List Arith Lia.
Import ListNotations.


Section Inv.
Variable len : nat.
Hypothesis Hlen : 0 < len.

Definition sorted (M : list msg) : Prop :=
  forall i j, i <= j -> j < length M -> mabs (nth i M dmsg) <= mabs (nth j M dmsg).
Definition lastabs (M : list msg) : nat := mabs (nth (length M - 1) M dmsg).
Definition mt (c : cfg) (k : nat) : meta := nth k (metas c) dmeta.

Definition view_ok (c : cfg) (v : view) : Prop :=
  vpi v < length (Mpi c) /\ vci v < length (Mci c) /\
  wP v <= pos (P c) /\ wC v <= pos (C c) /\
  mabs (nth (vpi v) (Mpi c) dmsg) <= wP v /\
  mabs (nth (vci v) (Mci c) dmsg) <= wC v /\
  (forall k, k < len -> wpos (mt c k) < wP v -> wclk (mt c k) <= kp v) /\
  (forall k, k < len -> rpos (mt c k) < wC v -> rclk (mt c k) <= kc v).

(* [view_ok] is stable under this "growth" of the configuration. *)
Definition grows (c c' : cfg) : Prop :=
  (exists xs, Mpi c' = Mpi c ++ xs) /\ (exists ys, Mci c' = Mci c ++ ys) /\
  pos (P c) <= pos (P c') /\ pos (C c) <= pos (C c') /\
  (forall k, k < len ->
     (mt c' k = mt c k) \/
     (wpos (mt c' k) = pos (P c) /\ rpos (mt c' k) = rpos (mt c k) /\ rclk (mt c' k) = rclk (mt c k)) \/
     (rpos (mt c' k) = pos (C c) /\ wpos (mt c' k) = wpos (mt c k) /\ wclk (mt c' k) = wclk (mt c k))).

Lemma grows_refl c : grows c c.
Proof using Hlen.
  repeat split; try (exists []; rewrite app_nil_r; reflexivity); try lia. intros; left; reflexivity.
Qed.

Lemma vjoin_ok c a b : view_ok c a -> view_ok c b -> view_ok c (vjoin a b).
Proof using Type.
  clear Hlen. intros (A1&A2&A3&A4&A5&A6&A7&A8) (B1&B2&B3&B4&B5&B6&B7&B8).
  unfold view_ok, vjoin; simpl. repeat split; try lia.
  - destruct (Nat.max_spec (vpi a) (vpi b)) as [[_ ->]|[_ ->]]; lia.
  - destruct (Nat.max_spec (vci a) (vci b)) as [[_ ->]|[_ ->]]; lia.
  - intros k Hk Hw.
    destruct (Nat.max_spec (wP a) (wP b)) as [[_ E]|[_ E]]; rewrite E in Hw.
    + specialize (B7 k Hk Hw); lia.
    + specialize (A7 k Hk Hw); lia.
  - intros k Hk Hw.
    destruct (Nat.max_spec (wC a) (wC b)) as [[_ E]|[_ E]]; rewrite E in Hw.
    + specialize (B8 k Hk Hw); lia.
    + specialize (A8 k Hk Hw); lia.
Qed.

Lemma view_ok_join c a b : sorted (Mpi c) -> sorted (Mci c) -> view_ok c a -> view_ok c b -> view_ok c (vjoin a b).
Proof using Hlen. intros _ _. apply vjoin_ok. Qed.
End Inv.

Lemma view_ok_grows len c c' v : grows len c c' -> view_ok len c v -> view_ok len c' v.
Proof.
  intros (Hpi & Hci & HpP & HpC & Hm) (H1 & H2 & H3 & H4 & H5 & H6 & H7 & H8).
  destruct Hpi as [xs Hpi]. destruct Hci as [ys Hci].
  unfold view_ok. rewrite Hpi, Hci, !app_length.
  repeat split; try lia.
  - rewrite app_nth1 by lia; auto.
  - rewrite app_nth1 by lia; auto.
  - intros k Hk Hw. destruct (Hm k Hk) as [E|[(E1&E2&E3)|(E1&E2&E3)]].
    + rewrite E in *; auto.
    + lia.
    + rewrite E2, E3 in *; auto.
  - intros k Hk Hw. destruct (Hm k Hk) as [E|[(E1&E2&E3)|(E1&E2&E3)]].
    + rewrite E in *; auto.
    + rewrite E2, E3 in *; auto.
    + lia.
Qed.

Lemma sorted_app M x : sorted M -> lastabs M <= mabs x -> sorted (M ++ [x]).
Proof. exact (sorted_snoc mabs dmsg M x). Qed.

Lemma sorted_last M i : sorted M -> i < length M -> mabs (nth i M dmsg) <= lastabs M.
Proof. intros Hs Hi. unfold lastabs. apply Hs; lia. Qed.

Lemma lastabs_app M x : lastabs (M ++ [x]) = mabs x.
Proof. unfold lastabs. rewrite app_length; simpl. replace (length M + 1 - 1) with (length M) by lia.
  rewrite nth_app_last; reflexivity. Qed.

(* [lastabs] is the absolute position of the last message: RAx.v's [publishedC] / [publishedP]. *)
Lemma lastabs_last (M : list msg) : lastabs M = mabs (last M dmsg).
Proof. exact (f_equal mabs (nth_pred_last M dmsg)). Qed.

Lemma Forall_nth_msg (Q : msg -> Prop) M i : Forall Q M -> i < length M -> Q (nth i M dmsg).
Proof. intros F Hi. rewrite Forall_forall in F. apply F. apply nth_In; auto. Qed.

Lemma nth_init_meta len k : k < len -> nth k (map (fun k => mkMeta k 0 k 0) (seq 0 len)) dmeta = mkMeta k 0 k 0.
Proof.
  intros Hk. change dmeta with ((fun k => mkMeta k 0 k 0) 0).
  rewrite map_nth. rewrite seq_nth by auto. reflexivity.
Qed.
