(** * D-tie: the data-touching functions translated from the Rust source on every run (gen/DataFns.v, by tools/data_translate.py)
      do exactly what the Model's functions do - for all lengths, states, arguments - and never reach undefined behaviour.
      Statements closed by [exact].  Part of the obligations of C01 C05 C06 C08 C09.
      ([wf k s]: index and successor index below len, len cells, 2*len representable, remembered availability <= len; it holds in
      every state related to a Spec state, [DT_wf_reachable].) *)
From Coq Require Import List Arith NArith Lia.
Import ListNotations.
Require Import MRB.Base.ListAux MRB.Model.Types MRB.Model.Seq MRB.Model.KernelM MRB.Model.DataM MRB.Spec.Pipe MRB.Proofs.Rel.
Require Import MRB.gen.DataFns MRB.Proofs.DataTie MRB.Proofs.DataTieSlices MRB.Proofs.DataTieRel.

Theorem DT_source_translated : DataFns.data_clean = true.
Proof. exact data_closed. Qed.
Print Assumptions DT_source_translated.

Theorem DT_wf_reachable : forall m a k, Rel m a -> a_usable k a = true -> mlen m + mlen m < usize_max -> wf k m.
Proof. exact rel_wf. Qed.
Print Assumptions DT_wf_reachable.

(** single items: the pointer handed out is the cell at the local index, iff [check(1)] grants *)
Theorem DT_next_ref_forms : forall k s src out, wf k s ->
  (exists r d, drun (d_next_ref (denv_of k s src)) (view k s out) = Some (r, d) /\ grant_one_res k s out r d) /\
  (exists r d, drun (d_next_ref_mut (denv_of k s src)) (view k s out) = Some (r, d) /\ grant_one_res k s out r d) /\
  (exists r d, drun (d_next_ref_mut_init (denv_of k s src)) (view k s out) = Some (r, d) /\ grant_one_res k s out r d).
Proof. intros k s src out H. repeat split; [exact (tie_next_ref k s src out H) | exact (tie_next_ref_mut k s src out H) | exact (tie_next_ref_mut_init k s src out H)]. Qed.
Print Assumptions DT_next_ref_forms.

Theorem DT_single_item_wrappers : forall k s src out, wf k s ->
  (exists r d, drun (d_get_workable (denv_of k s src)) (view k s out) = Some (r, d) /\ grant_one_res k s out r d) /\
  (exists r d, drun (d_get_next_item_mut (denv_of k s src)) (view k s out) = Some (r, d) /\ grant_one_res k s out r d) /\
  (exists r d, drun (d_get_next_item_mut_init (denv_of k s src)) (view k s out) = Some (r, d) /\ grant_one_res k s out r d) /\
  (exists r d, drun (d_peek_ref (denv_of k s src)) (view k s out) = Some (r, d) /\ grant_one_res k s out r d).
Proof. exact tie_single_item_wrappers. Qed.
Print Assumptions DT_single_item_wrappers.

(** [pop_move] / [pop] (= [next] / [next_duplicate]): value, emptied cell, publication, ledger event *)
Theorem DT_pop : forall s src out, wf C s -> det (it_of C s) = false ->
  (exists r d, drun (d_pop_move (denv_of C s src)) (view C s out) = Some (r, d) /\ pop_res s out true r d) /\
  (exists r d, drun (d_pop (denv_of C s src)) (view C s out) = Some (r, d) /\ pop_res s out false r d).
Proof. exact tie_pop_wrappers. Qed.
Print Assumptions DT_pop.

(** [push] / [push_init]: the value lands in the cell at the producer's index; [push] drops the old contents (an all-zero one
    included), [push_init] only a non-zero one; refused pushes hand the value back and touch nothing *)
Theorem DT_push : forall s src out v, wf P s -> det (it_of P s) = false ->
  (exists r d, drun (d_push (denv_of P s src) v) (view P s out) = Some (r, d) /\ push_res s out v SAssign r d) /\
  (exists r d, drun (d_push_init (denv_of P s src) v) (view P s out) = Some (r, d) /\ push_res s out v SInit r d).
Proof. intros s src out v H A. split; [exact (tie_push s src out v H A) | exact (tie_push_init s src out v H A)]. Qed.
Print Assumptions DT_push.

Theorem DT_extract_item : forall s src o0, wf C s -> det (it_of C s) = false ->
  (owned s = false -> exists r d, drun (d_copy_item (denv_of C s src) (LDst 0)) (view C s [o0]) = Some (r, d) /\ extract_item_res s o0 false r d) /\
  (exists r d, drun (d_clone_item (denv_of C s src) (LDst 0)) (view C s [o0]) = Some (r, d) /\ extract_item_res s o0 true r d).
Proof. intros s src o0 H A. split; [exact (tie_copy_item s src o0 H A) | exact (tie_clone_item s src o0 H A)]. Qed.
Print Assumptions DT_extract_item.

(** [next_chunk] / [next_chunk_mut] and their wrappers: the two raw slices are exactly [chunk] of the window, inside the allocation *)
Theorem DT_chunks : forall k s src out n, wf k s ->
  (exists r d, drun (d_next_chunk (denv_of k s src) n) (view k s out) = Some (r, d) /\ grant_res k s out n r d) /\
  (exists r d, drun (d_next_chunk_mut (denv_of k s src) n) (view k s out) = Some (r, d) /\ grant_res k s out n r d) /\
  (exists r d, drun (d_get_workable_slice_exact (denv_of k s src) n) (view k s out) = Some (r, d) /\ grant_res k s out n r d) /\
  (exists r d, drun (d_get_next_slices_mut (denv_of k s src) n) (view k s out) = Some (r, d) /\ grant_res k s out n r d) /\
  (exists r d, drun (d_peek_slice (denv_of k s src) n) (view k s out) = Some (r, d) /\ grant_res k s out n r d).
Proof.
  intros k s src out n H. destruct (tie_slice_wrappers k s src out n H) as (A & B & C0).
  repeat split; [exact (tie_next_chunk k s src out n H) | exact (tie_next_chunk_mut k s src out n H) | exact A | exact B | exact C0].
Qed.
Print Assumptions DT_chunks.

Theorem DT_fresh_look_forms : forall k s src out, wf k s ->
  (exists r d, drun (d_get_workable_slice_avail (denv_of k s src)) (view k s out) = Some (r, d) /\
     match fresh k s with
     | 0 => r = None /\ agrees k (fst (refresh k s)) [] [] d /\ d_out d = out
     | S _ => grant_res k (fst (refresh k s)) out (fresh k s) r d
     end) /\
  (exists r d, drun (d_peek_available (denv_of k s src)) (view k s out) = Some (r, d) /\ grant_res k (fst (refresh k s)) out (fresh k s) r d) /\
  (forall rhs, rhs <> 0 ->
   exists r d, drun (d_get_workable_slice_multiple_of (denv_of k s src) rhs) (view k s out) = Some (r, d) /\
     match fresh k s - fresh k s mod rhs with
     | 0 => r = None /\ agrees k (fst (refresh k s)) [] [] d /\ d_out d = out
     | S _ => grant_res k (fst (refresh k s)) out (fresh k s - fresh k s mod rhs) r d
     end) /\
  drun (d_get_workable_slice_multiple_of (denv_of k s src) 0) (view k s out) = None.
Proof.
  intros k s src out H. repeat split;
  [exact (tie_get_workable_slice_avail k s src out H) | exact (tie_peek_available k s src out H)
  | exact (tie_get_workable_slice_multiple_of k s src out H) | exact (tie_multiple_of_zero_panics k s src out H)].
Qed.
Print Assumptions DT_fresh_look_forms.

(** the four slice pushes: all-or-nothing, the values land in the window's cells in order (split at the physical end exactly like
    [chunk]), clones get fresh identities, old contents are dropped according to the method's mode *)
Theorem DT_push_slices : forall s vs out, wf P s -> det (it_of P s) = false ->
  (owned s = false -> exists r d, drun (d_push_slice (denv_of P s vs) (src_sl (denv_of P s vs))) (view P s out) = Some (r, d) /\ push_slice_res s vs out SCopy false r d) /\
  (owned s = false -> exists r d, drun (d_push_slice_init (denv_of P s vs) (src_sl (denv_of P s vs))) (view P s out) = Some (r, d) /\ push_slice_res s vs out SCopy false r d) /\
  (exists r d, drun (d_push_slice_clone (denv_of P s vs) (src_sl (denv_of P s vs))) (view P s out) = Some (r, d) /\ push_slice_res s vs out SAssign true r d) /\
  (exists r d, drun (d_push_slice_clone_init (denv_of P s vs) (src_sl (denv_of P s vs))) (view P s out) = Some (r, d) /\ push_slice_res s vs out SInit true r d).
Proof.
  intros s vs out H A. repeat split;
  [exact (tie_push_slice s vs out H A) | exact (tie_push_slice_init s vs out H A) | exact (tie_push_slice_clone s vs out H A) | exact (tie_push_slice_clone_init s vs out H A)].
Qed.
Print Assumptions DT_push_slices.

Theorem DT_extract_slices : forall s src out, wf C s -> det (it_of C s) = false ->
  (owned s = false -> exists r d, drun (d_copy_slice (denv_of C s src) (mkSl RDst 0 (length out))) (view C s out) = Some (r, d) /\ extract_slice_res s out false r d) /\
  (exists r d, drun (d_clone_slice (denv_of C s src) (mkSl RDst 0 (length out))) (view C s out) = Some (r, d) /\ extract_slice_res s out true r d).
Proof. intros s src out H A. split; [exact (tie_copy_slice s src out H A) | exact (tie_clone_slice s src out H A)]. Qed.
Print Assumptions DT_extract_slices.

(** [wait_for], the one busy-waiting call: every round is one fresh look; nothing is published, no cell is touched; it returns in the
    first round in which enough items are there (fuel = number of rounds granted to the loop) *)
Theorem DT_wait_for : forall k s src out fuel count, wf k s ->
  drun (d_wait_for (denv_of k s src) fuel count) (view k s out) =
  Some (match fuel with 0 => None | S _ => if count <=? fresh k s then Some tt else None end,
        match fuel with 0 => view k s out | S _ => view k (fst (refresh k s)) out end).
Proof. intros k s src out fuel count H. exact (tie_wait_for k s src out H fuel count). Qed.
Print Assumptions DT_wait_for.

(** the [Detached] wrapper and the [AsyncIterator] trait only pass [available], [wait_for], [index], [buf_len], [get_workable*]
    (resp. [index], [available], [advance]) on to the wrapped iterator - a [delegate!] line or an equivalent hand-written body *)
Theorem DT_pass_through : forallb (fun x => snd x) DataFns.pass_through = true.
Proof. exact pass_through_closed. Qed.
Print Assumptions DT_pass_through.

(** wiring: the published index each iterator follows ([succ_index]) and the one it publishes to ([set_atomic_index]), translated from
    the three iterator files, are the Model's: producer <- consumer, worker <- producer, consumer <- worker (W) or producer (!W) *)
Theorem DT_wiring : forall k s, succ_idx k s = tget (g_succ k (hasW s)) (pub s) /\ g_pub k = k.
Proof. exact tie_wiring. Qed.
Print Assumptions DT_wiring.

(** non-vacuity: a concrete state satisfies [wf] (so the theorems above apply to it); [usize_max = 2^64] is never evaluated *)
Lemma small_lt_usize_max : forall n, n <= 1000 -> n + n < usize_max.
Proof.
  intros n H. unfold usize_max.
  pose proof (Nat.pow_le_mono_r 2 11 64 ltac:(discriminate) ltac:(repeat constructor)) as H0.
  change (2 ^ 11) with 2048 in H0. set (big := 2 ^ 64) in *. clearbody big. lia.
Qed.
Example DT_wf_example :
  let s := mkM 3 [5; 0; 7]%N (mkTri 1 0 0) (mkTri true false true) (mkTri (mkIter 1 0 false true) gone_iter (mkIter 0 0 false true)) false true true false 1000000%N in
  wf P s /\ det (it_of P s) = false /\ fst (check P 1 s) = true.
Proof.
  cbv zeta. split; [|split; reflexivity].
  constructor; cbn [mlen slots its it_of tget ix ca succ_idx pub tC length tP hasW].
  - lia.
  - lia.
  - reflexivity.
  - apply small_lt_usize_max. lia.
  - lia.
Qed.

(** CAPSTONE: the translated source refines the tape Spec (D-tie composed with [step_refines]): in every Model state related to a Spec
    state, running the function translated from the Rust source answers what the Spec answers and leaves the cells, indices,
    publication, clone identities and ledger of a state again related to the Spec's next state *)
Require MRB.Proofs.DataTieSpec.
Theorem DT_source_refines_spec_push : forall m a, Rel m a -> mlen m + mlen m < usize_max -> forall v src out, a_attached P a = true ->
  exists r d, drun (d_push (denv_of P m src) v) (view P m out) = Some (r, d) /\
    let '(a', (o, evs)) := sstep a (Push v) in
    (match r, o with Ok _, OOk => True | Err x, OErr y => x = y /\ x = v | _, _ => False end) /\
    exists m', Rel m' a' /\ agrees P m' (match r with Ok _ => [tP (pub m')] | Err _ => [] end) evs d.
Proof. exact DataTieSpec.push_source_refines_spec. Qed.
Print Assumptions DT_source_refines_spec_push.

Theorem DT_source_refines_spec_pop : forall m a, Rel m a -> mlen m + mlen m < usize_max -> forall src out, a_attached C a = true ->
  exists r d, drun (d_pop (denv_of C m src)) (view C m out) = Some (r, d) /\
    let '(a', (o, evs)) := sstep a Pop in
    (match r, o with Some v, OVal v' => v = v' | None, ONone => True | _, _ => False end) /\
    exists m', Rel m' a' /\ agrees C m' (match r with Some _ => [tC (pub m')] | None => [] end) evs d.
Proof. exact DataTieSpec.pop_source_refines_spec. Qed.
Print Assumptions DT_source_refines_spec_pop.

Theorem DT_source_refines_spec_push_slice : forall m a, Rel m a -> mlen m + mlen m < usize_max -> forall vs out, a_attached P a = true ->
  exists r d, drun (d_push_slice_clone_init (denv_of P m vs) (src_sl (denv_of P m vs))) (view P m out) = Some (r, d) /\
    let '(a', (o, evs)) := sstep a (PushSliceCloneInit vs) in
    (match r, o with Some _, OOk => True | None, ONone => True | _, _ => False end) /\
    exists m' evs0, Rel m' a' /\ agrees P m' (match r with Some _ => [tP (pub m')] | None => [] end) evs0 d /\ evs0 = evs.
Proof. exact DataTieSpec.push_slice_clone_init_source_refines_spec. Qed.
Print Assumptions DT_source_refines_spec_push_slice.

Theorem DT_source_refines_spec_slices : forall m a, Rel m a -> mlen m + mlen m < usize_max -> forall k n src out, a_usable k a = true ->
  exists r d, drun (d_get_workable_slice_exact (denv_of k m src) n) (view k m out) = Some (r, d) /\
    let '(a', (o, _)) := sstep a (GetExact k n) in
    (match r, o with
     | Some (s1, s2), OSlices i h t => s_off s1 = i /\ h = sub (slots m) (s_off s1) (s_len s1) /\ t = sub (slots m) (s_off s2) (s_len s2) /\ s_len s1 + s_len s2 = n
     | None, ONone => True
     | _, _ => False
     end) /\
    exists m', Rel m' a' /\ agrees k m' [] [] d.
Proof. exact DataTieSpec.slice_exact_source_refines_spec. Qed.
Print Assumptions DT_source_refines_spec_slices.

(** ** the access discipline of the translated functions

    In the monad the source is translated into, reading or writing a buffer cell is defined only INSIDE THE WINDOW THE ITERATOR HOLDS
    ([DataM.in_window]: [l_cached] cells from the local index on, cyclically - what an Acquire load of the successor's index has shown to be
    its own and what it has not yet published away).  Every [DT_*] statement above says "the translated function runs" ([= Some ..]) for all
    states the contract allows; with [DT_access_inside_window] each of them therefore also says that the function touches no cell before an
    availability check has covered it ([DT_granted_covers]) and none after [advance] has handed it on.  A data read hoisted above the
    index load, or a write sunk below the publication, is undefined in some state and its tie theorem no longer checks. *)
Theorem DT_access_inside_window : forall E i d,
  (forall v d', rd E (LBuf i) d = Some (v, d') -> i < length (d_slots d) /\ in_window d i = true) /\
  (forall m v u d', store_mode E m (LBuf i) v d = Some (u, d') -> i < length (d_slots d) /\ in_window d i = true) /\
  (forall v d', take_inner E (LBuf i) d = Some (v, d') -> i < length (d_slots d) /\ in_window d i = true) /\
  (forall v d', inner_duplicate E (LBuf i) d = Some (v, d') -> i < length (d_slots d) /\ in_window d i = true) /\
  (forall b d', check_zeroed E (LBuf i) d = Some (b, d') -> i < length (d_slots d) /\ in_window d i = true).
Proof. exact access_inside_window. Qed.
Print Assumptions DT_access_inside_window.

Theorem DT_granted_covers : forall k n s s1, check k n s = (true, s1) -> n <= ca (it_of k s1).
Proof. exact check_grants. Qed.
Print Assumptions DT_granted_covers.

(** nothing held, nothing touched: with a remembered availability of 0 even the cell at the local index is out of reach *)
Theorem DT_nothing_held_nothing_read : forall E ix0 sl pubs evs nid out,
  rd E (LBuf ix0) (mkD (mkL ix0 0) sl pubs evs nid out) = None.
Proof. exact nothing_held_nothing_read. Qed.
Print Assumptions DT_nothing_held_nothing_read.
