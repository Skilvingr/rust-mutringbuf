(** * C14: Polling an async op equals one synchronous attempt; Pending has no effect
    Only statements closed by [exact]; proofs live in Proofs/Async*.v. *)
From Coq Require Import List NArith.
Import ListNotations.
Require Import MRB.Model.Types MRB.Model.Seq MRB.Model.Async.
Require Import MRB.Proofs.AsyncFacts.

Theorem C14_ready :
  forall (s : Async.astate) (a : Pipe.pipe) (k : Types.stage) (o : Types.op), Rel.Rel (Async.base s) a -> Pipe.ok_op a o = true -> Async.refused (fst (snd (Seq.step (Async.base s) o))) = false -> Async.poll k o s = (Async.set_base (fst (Seq.step (Async.base s) o)) s, snd (Seq.step (Async.base s) o)) /\ Rel.Rel (fst (Seq.step (Async.base s) o)) (fst (Pipe.sstep a o)) /\ snd (Seq.step (Async.base s) o) = snd (Pipe.sstep a o).
Proof. exact AsyncFacts.poll_ready. Qed.
Print Assumptions C14_ready.

Theorem C14_pending_noop :
  forall (s : Async.astate) (a : Pipe.pipe) (k : Types.stage) (o : Types.op), Rel.Rel (Async.base s) a -> Pipe.ok_op a o = true -> Async.refused (fst (snd (Seq.step (Async.base s) o))) = true -> exists m2 : Seq.mstate, Async.poll k o s = (Async.register k (Async.set_base m2 s), (Types.OPending, nil)) /\ Rel.Rel m2 a /\ Pipe.sstep a o = (a, (fst (snd (Pipe.sstep a o)), nil)) /\ Types.tget k (Async.wk (fst (Async.poll k o s))) = Some (Async.task s) /\ Async.held (fst (Async.poll k o s)) = Async.held s.
Proof. exact AsyncFacts.poll_pending. Qed.
Print Assumptions C14_pending_noop.

Theorem C14_same_buffer :
  forall (m m' : Seq.mstate) (a : Pipe.pipe), Rel.Rel m a -> Rel.Rel m' a -> Seq.pub m = Seq.pub m' /\ Seq.slots m = Seq.slots m' /\ Seq.flag m = Seq.flag m' /\ Seq.freed m = Seq.freed m' /\ (forall j : Types.stage, Types.tget j (Pipe.shere a) = true -> Seq.ix (Seq.it_of j m) = Seq.ix (Seq.it_of j m') /\ Seq.det (Seq.it_of j m) = Seq.det (Seq.it_of j m')).
Proof. exact AsyncFacts.same_spec_same_buffer. Qed.
Print Assumptions C14_same_buffer.

Theorem C14_refused_spec_noop :
  forall (a : Pipe.pipe) (o : Types.op), Async.refused (fst (snd (Pipe.sstep a o))) = true -> Pipe.sstep a o = (a, (fst (snd (Pipe.sstep a o)), nil)).
Proof. exact AsyncFacts.sstep_refused_same. Qed.
Print Assumptions C14_refused_spec_noop.

(** non-vacuity: a push future on a full buffer is Pending, keeps its value (no ledger event), and completes - storing the
    value exactly once - when polled again after the consumer made room *)
Definition c14_cfg := mkConfig [1;2;3]%N false true true.
Definition c14_hist : list aop := [APoll (Push 10); APoll (Push 11); AHold (Push 12); ARepoll P; APoll PopMove; ARepoll P; APoll PopMove]%N.
Example C14_example :
  match init c14_cfg with
  | Some m => map (fun x => (fst x, snd x)) (snd (arun (a_init_state m) c14_hist)) =
      [(OOk, [LDrop 1; LTake 10]); (OOk, [LDrop 2; LTake 11]); (OPending, []); (OPending, []); (OVal 10, [LGive 10]);
       (OOk, [LDrop 3; LTake 12]); (OVal 11, [LGive 11])]%N
  | None => False
  end.
Proof. vm_compute. reflexivity. Qed.

(** WHOLE ASYNC HISTORIES (Proofs/AsyncRefine.v): an async history is observationally the synchronous history of its resolving polls;
    a pending push is stored exactly once, at the poll that resolves, with its value - or never if the future is dropped *)
Require MRB.Proofs.AsyncRefine.
Theorem C14_history_refines :
  forall (h : list Async.aop) (s : Async.astate) (a : Pipe.pipe), Rel.Rel (Async.base s) a -> snd (Pipe.srun a (AsyncRefine.erase s h)) = true -> Rel.Rel (Async.base (fst (Async.arun s h))) (fst (fst (Pipe.srun a (AsyncRefine.erase s h)))) /\ AsyncRefine.obs s h = snd (fst (Pipe.srun a (AsyncRefine.erase s h))) /\ AsyncRefine.ledger (snd (Async.arun s h)) = AsyncRefine.ledger (snd (fst (Pipe.srun a (AsyncRefine.erase s h)))).
Proof. exact AsyncRefine.async_refines. Qed.
Print Assumptions C14_history_refines.

Theorem C14_history_is_sync :
  forall (h : list Async.aop) (s : Async.astate) (a : Pipe.pipe), Rel.Rel (Async.base s) a -> snd (Pipe.srun a (AsyncRefine.erase s h)) = true -> let m_async := Async.base (fst (Async.arun s h)) in let m_sync := fst (Seq.run (Async.base s) (AsyncRefine.erase s h)) in AsyncRefine.obs s h = snd (Seq.run (Async.base s) (AsyncRefine.erase s h)) /\ AsyncRefine.ledger (snd (Async.arun s h)) = AsyncRefine.ledger (snd (Seq.run (Async.base s) (AsyncRefine.erase s h))) /\ Seq.pub m_async = Seq.pub m_sync /\ Seq.slots m_async = Seq.slots m_sync /\ Seq.flag m_async = Seq.flag m_sync /\ Seq.freed m_async = Seq.freed m_sync /\ (forall j : Types.stage, Seq.here (Seq.it_of j m_async) = Seq.here (Seq.it_of j m_sync)) /\ (forall j : Types.stage, Seq.here (Seq.it_of j m_async) = true -> Seq.ix (Seq.it_of j m_async) = Seq.ix (Seq.it_of j m_sync) /\ Seq.det (Seq.it_of j m_async) = Seq.det (Seq.it_of j m_sync)).
Proof. exact AsyncRefine.async_is_sync. Qed.
Print Assumptions C14_history_is_sync.

Theorem C14_held_value_kept :
  forall (v : BinNums.N) (s : Async.astate) (h1 h2 : list Async.aop), let s1 := fst (Async.astep s (Async.AHold (Types.Push v))) in fst (snd (Async.astep s (Async.AHold (Types.Push v)))) = Types.OPending -> AsyncRefine.kept Types.P s1 (h1 ++ h2) = true -> Types.tget Types.P (Async.held s1) = Some (Types.Push v) /\ Types.tget Types.P (Async.held (fst (Async.arun s1 h1))) = Some (Types.Push v) /\ Types.tget Types.P (Async.held (fst (Async.arun s (Async.AHold (Types.Push v) :: h1)))) = Some (Types.Push v) /\ AsyncRefine.attempt (fst (Async.arun s1 h1)) (Async.ARepoll Types.P) = Some (Types.Push v).
Proof. exact AsyncRefine.held_value_kept. Qed.
Print Assumptions C14_held_value_kept.

Theorem C14_pending_push_stored_once :
  forall (v : BinNums.N) (s : Async.astate) (mid : list Async.aop), let s1 := fst (Async.astep s (Async.AHold (Types.Push v))) in let s2 := fst (Async.arun s1 mid) in AsyncRefine.held_wf s -> fst (snd (Async.astep s (Async.AHold (Types.Push v)))) = Types.OPending -> AsyncRefine.kept Types.P s1 mid = true -> AsyncRefine.visible (fst (snd (Async.astep s2 (Async.ARepoll Types.P)))) = true -> AsyncRefine.erase s (Async.AHold (Types.Push v) :: mid ++ Async.ARepoll Types.P :: nil) = (AsyncRefine.erase s1 mid ++ Types.Push v :: nil)%list /\ (forall g : Types.op, List.In g (AsyncRefine.erase s1 mid) -> Async.future_of g <> Some Types.P) /\ AsyncRefine.performed s2 (Async.ARepoll Types.P) = Some (Types.Push v) /\ Types.tget Types.P (Async.held (fst (Async.astep s2 (Async.ARepoll Types.P)))) = None.
Proof. exact AsyncRefine.pending_push_stored_once. Qed.
Print Assumptions C14_pending_push_stored_once.

Theorem C14_dropped_push_not_stored :
  forall (v : BinNums.N) (s : Async.astate) (mid : list Async.aop), let s1 := fst (Async.astep s (Async.AHold (Types.Push v))) in let s2 := fst (Async.arun s1 mid) in AsyncRefine.held_wf s -> fst (snd (Async.astep s (Async.AHold (Types.Push v)))) = Types.OPending -> AsyncRefine.kept Types.P s1 mid = true -> AsyncRefine.erase s (Async.AHold (Types.Push v) :: mid ++ Async.ADropFut Types.P :: nil) = AsyncRefine.erase s1 mid /\ (forall g : Types.op, List.In g (AsyncRefine.erase s1 mid) -> Async.future_of g <> Some Types.P) /\ Async.astep s2 (Async.ADropFut Types.P) = (Async.set_held Types.P None s2, (Types.OUnit, nil)) /\ Types.tget Types.P (Async.held (fst (Async.astep s2 (Async.ADropFut Types.P)))) = None.
Proof. exact AsyncRefine.dropped_push_not_stored. Qed.
Print Assumptions C14_dropped_push_not_stored.

Theorem C14_resolved_push_result :
  forall (v : BinNums.N) (s : Async.astate) (a : Pipe.pipe), Rel.Rel (Async.base s) a -> Types.tget Types.P (Async.held s) = Some (Types.Push v) -> AsyncRefine.visible (fst (snd (Async.astep s (Async.ARepoll Types.P)))) = true -> let s' := fst (Async.astep s (Async.ARepoll Types.P)) in let a' := fst (Pipe.sstep a (Types.Push v)) in Rel.Rel (Async.base s') a' /\ snd (Async.astep s (Async.ARepoll Types.P)) = (Types.OOk, Pipe.a_ev a (Seq.store_ev Seq.SAssign (Pipe.a_cell (Types.tP (Pipe.lpos a)) a) ++ Types.LTake v :: nil)) /\ List.nth (Types.tP (Pipe.lpos a)) (Pipe.tape a') BinNums.N0 = v /\ Types.tP (Pipe.lpos a') = Types.tP (Pipe.lpos a) + 1 /\ Types.tget Types.P (Async.held s') = None.
Proof. exact AsyncRefine.resolved_push_result. Qed.
Print Assumptions C14_resolved_push_result.

Theorem C14_completes_when_condition_true :
  forall (k : Types.stage) (f : Types.op) (s : Async.astate) (a : Pipe.pipe), Rel.Rel (Async.base s) a -> AsyncRefine.held_wf s -> Types.tget k (Async.held s) = Some f -> Async.refused (fst (snd (Pipe.sstep a f))) = false -> fst (snd (Async.astep s (Async.ARepoll k))) <> Types.OPending /\ snd (Async.astep s (Async.ARepoll k)) = snd (Pipe.sstep a f) /\ Rel.Rel (Async.base (fst (Async.astep s (Async.ARepoll k)))) (fst (Pipe.sstep a f)) /\ Types.tget k (Async.held (fst (Async.astep s (Async.ARepoll k)))) = None.
Proof. exact AsyncRefine.completes_when_condition_true. Qed.
Print Assumptions C14_completes_when_condition_true.

Theorem C14_pending_while_condition_false :
  forall (k : Types.stage) (f : Types.op) (s : Async.astate) (a : Pipe.pipe), Rel.Rel (Async.base s) a -> AsyncRefine.held_wf s -> Types.tget k (Async.held s) = Some f -> Async.refused (fst (snd (Pipe.sstep a f))) = true -> snd (Async.astep s (Async.ARepoll k)) = (Types.OPending, nil) /\ Rel.Rel (Async.base (fst (Async.astep s (Async.ARepoll k)))) a /\ Types.tget k (Async.held (fst (Async.astep s (Async.ARepoll k)))) = Some f.
Proof. exact AsyncRefine.pending_while_condition_false. Qed.
Print Assumptions C14_pending_while_condition_false.


(** P-tie: the body of [MRBFuture::poll], executed symbolically on every run for every sequence of attempt outcomes (gen/PollGen.v:
    which events - attempt of the stored operation, registration of the polling task's waker - happen in which order, how the poll
    ends; the by-reference and the by-value form must agree), is the Model's [poll] *)
Theorem C14_poll_is_source :
  PollGen.poll_clean = true /\
  forall (k : Types.stage) (o : Types.op) (s : Async.astate), PollShape.poll_by_shape PollGen.poll_shape k o s = Some (Async.poll k o s).
Proof. split; [exact AsyncFacts.poll_source_closed | exact AsyncFacts.poll_is_source_shape]. Qed.
Print Assumptions C14_poll_is_source.

(** every async method of the source (19: the four common ones, six of the producer, nine of the consumer; regenerated on every run):
    the operation its future attempts is exactly the synchronous method of the same name on the wrapped iterator, called with the
    future's own payload, stored in the slot (by reference / by value) the future's type announces *)
Theorem C14_async_methods_source :
  forallb (fun x => snd x) PollGen.async_methods = true /\ PollGen.async_clean = true /\ 19 <= length PollGen.async_methods.
Proof. vm_compute. repeat split; repeat constructor. Qed.
Print Assumptions C14_async_methods_source.

(** a poll during whose waker registration another stage acts ([Async.poll_inj], the "second attempt succeeds" branch of [poll]):
    against the Spec it is the injected operation (if that step performed one) followed by the polled operation (if the poll
    resolved) - same answer, same ledger, related states; the refused first attempt took, dropped, duplicated and stored nothing *)
Require MRB.Proofs.AsyncInj.
Theorem C14_poll_with_injected_step_refines :
  forall (s : Async.astate) (k : Types.stage) (o : Types.op) (d : Async.aop),
    Async.refused (fst (snd (Seq.step (Async.base s) o))) = true ->
    forall a : Pipe.pipe, Rel.Rel (Async.base s) a -> Async.future_of o = Some k ->
    let s1 := Async.register k (Async.set_base (fst (Seq.step (Async.base s) o)) s) in
    let g := AsyncRefine.performed s1 d in
    (forall f, g = Some f -> Pipe.ok_op a f = true) ->
    let a1 := match g with Some f => fst (Pipe.sstep a f) | None => a end in
    let l1 := match g with Some f => snd (snd (Pipe.sstep a f)) | None => nil end in
    let r := Async.poll_inj k o d s in
    let x := fst (snd (fst r)) in
    Async.refused x = false /\
    (AsyncRefine.visible x = true ->
       Rel.Rel (Async.base (fst (fst r))) (fst (Pipe.sstep a1 o)) /\ x = fst (snd (Pipe.sstep a1 o)) /\
       snd (snd (fst r)) = (l1 ++ snd (snd (Pipe.sstep a1 o)))%list) /\
    (AsyncRefine.visible x = false -> Rel.Rel (Async.base (fst (fst r))) a1 /\ snd (snd (fst r)) = l1).
Proof. intros s k o d H a R F. cbv zeta. intros OK. exact (AsyncInj.poll_inj_refines s k o d H a R F OK). Qed.
Print Assumptions C14_poll_with_injected_step_refines.
