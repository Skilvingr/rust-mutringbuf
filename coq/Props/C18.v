(** * C18: Construction and every split start a consistent, correctly sized session
    Statements closed by [exact] (proofs live in Proofs/) or, against gen/, by evaluation. *)
From Coq Require Import List.
Require Import MRB.Props.Examples.

Theorem C18_construct :
  forall c : Types.config, (length (Types.c_init c) = 0 <-> Seq.init c = None) /\ (forall m : Seq.mstate, Seq.init c = Some m -> exists a : Pipe.pipe, Pipe.a_init c = Some a /\ Rel.Rel m a /\ Seq.mlen m = length (Types.c_init c) /\ Seq.slots m = Types.c_init c /\ Pipe.a_avail Types.P a = Seq.mlen m - 1 /\ Pipe.a_avail Types.C a = 0 /\ (Pipe.shasW a = true -> Pipe.a_avail Types.W a = 0)).
Proof. exact SpecFacts.C18_construct. Qed.
Print Assumptions C18_construct.

Theorem C18_split :
  forall (m : Seq.mstate) (a : Pipe.pipe) (w : bool), Rel.Rel m a -> let m' := Seq.do_split w m in let a' := Pipe.a_split w a in Rel.Rel m' a' /\ Pipe.a_avail Types.P a' = Pipe.slen a - 1 /\ Pipe.a_avail Types.C a' = 0 /\ (w = true -> Pipe.a_avail Types.W a' = 0) /\ Seq.slots m' = Seq.slots m.
Proof. exact SpecFacts.C18_split. Qed.
Print Assumptions C18_split.

Theorem C18_init_refines :
  forall c : Types.config, match Seq.init c with | Some m => match Pipe.a_init c with | Some a => Rel.Rel m a | None => False end | None => match Pipe.a_init c with | Some _ => False | None => True end end.
Proof. exact Refine.init_refines. Qed.
Print Assumptions C18_init_refines.

(** EVERY split function of the source (regenerated on every run into gen/SplitFns.v: sync and async, heap and stack, also the ones that only
    exist without the `alloc` feature) creates producer and consumer, sets exactly the liveness bits of the iterators it creates and - when it
    can be reached by a buffer that was split before: every [&mut self] split, and every by-value split whose impl is not restricted to heap
    storage (F11) - resets all three published indices; such a function does to the buffer exactly what the Model's [do_split] does *)
Require MRB.Proofs.SplitFacts MRB.gen.SplitFns.
Theorem C18_splits_source : forallb Splits.split_ok SplitFns.splits = true /\ SplitFns.extractor_clean = true.
Proof. vm_compute. split; reflexivity. Qed.
Print Assumptions C18_splits_source.

Theorem C18_split_is_model_split :
  forall f, In f SplitFns.splits -> forall s, (Splits.sp_borrow f = false -> Splits.sp_heap_only f = true -> Seq.pub s = Types.mkTri 0 0 0) ->
  Splits.apply_split f s = Seq.do_split (Splits.sp_worker f) s.
Proof. exact (SplitFacts.all_ok_are_do_split SplitFns.splits (proj1 C18_splits_source)). Qed.
Print Assumptions C18_split_is_model_split.

(** the heap constructors of the source (regenerated on every run into gen/Ctors.v): a [default(capacity)] / [new_zeroed(capacity)]
    buffer has exactly [capacity] cells (without vmem; with vmem: [C17_round]), and [_from] of both variants is the plain constructor
    (length of the storage, zero length refused, published indices 0, no liveness flag set) - the state [init] of the Model starts from *)
Require MRB.gen.Ctors.
Theorem C18_constructors_source :
  (forall capacity, Ctors.default_len capacity = capacity /\ Ctors.new_zeroed_len capacity = capacity) /\
  forallb (fun x => snd x) Ctors.from_ok = true /\ length Ctors.from_ok = 2 /\ Ctors.extractor_clean = true.
Proof. split; [intros; split; reflexivity | vm_compute; repeat split]. Qed.
Print Assumptions C18_constructors_source.
