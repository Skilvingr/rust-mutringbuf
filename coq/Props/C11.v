(** * C11: reset_index leaves nothing available and releases what was skipped
    Only statements closed by [exact]; proofs live in Proofs/. *)
Require Import MRB.Props.Examples.
Require MRB.Conc.RAxproof.

Theorem C11_reset :
  forall (m : Seq.mstate) (a : Pipe.pipe) (k : Types.stage), Rel.Rel m a -> Pipe.a_attached k a = true -> k <> Types.P -> let a' := fst (Pipe.sstep a (Types.Reset k)) in let m' := fst (Seq.step m (Types.Reset k)) in Rel.Rel m' a' /\ Pipe.a_avail k a' = 0 /\ Seq.ca (Seq.it_of k m') = 0 /\ (forall n : nat, 0 < n -> fst (snd (Seq.step m' (Types.GetExact k n))) = Types.ONone) /\ Types.tget k (Pipe.lpos a') = Pipe.a_succ k a /\ Types.tget k (Pipe.ppos a') = Pipe.a_succ k a /\ (forall j : Types.stage, j <> k -> Types.tget j (Pipe.lpos a') = Types.tget j (Pipe.lpos a) /\ Pipe.a_succ j a' >= Pipe.a_succ j a).
Proof. exact SpecFacts.C11_reset. Qed.
Print Assumptions C11_reset.


(** under concurrency (release/acquire machine with resets, Conc/RAx.v): a reset while the producer keeps writing
    is race free, and never moves the consumer backwards *)
Theorem C11_reset_concurrent_race_free :
  forall len script, 0 < len -> MRB.Conc.RAx.race (MRB.Conc.RAx.exec_x len (MRB.Conc.RAx.init_x len) script) = false.
Proof. exact MRB.Conc.RAxproof.spsc_x_race_free. Qed.
Print Assumptions C11_reset_concurrent_race_free.

Theorem C11_reset_never_backwards :
  forall len s1 s2, 0 < len ->
  MRB.Conc.RAx.pos (MRB.Conc.RAx.C (MRB.Conc.RAx.exec_x len (MRB.Conc.RAx.init_x len) s1)) <=
  MRB.Conc.RAx.pos (MRB.Conc.RAx.C (MRB.Conc.RAx.exec_x len (MRB.Conc.RAx.init_x len) (s1 ++ s2))).
Proof. exact MRB.Conc.RAxproof.consumer_never_goes_back. Qed.
Print Assumptions C11_reset_never_backwards.

(** THREE stages with reset_index / detach / sync_index / attach on the WORKER and the consumer, under concurrency (Conc/RA3x.v) *)
Require MRB.Conc.RA3xproof.
Theorem C11_reset_three_stages_never_backwards :
  forall (len : nat) (s1 s2 : list (RA3.tid * RA3x.cmd)), 0 < len -> let c1 := RA3x.exec3_x len (RA3x.init3_x len) s1 in let c2 := RA3x.exec3_x len (RA3x.init3_x len) (s1 ++ s2) in RA3x.pos3 (RA3x.P3 c1) <= RA3x.pos3 (RA3x.P3 c2) /\ RA3x.pos3 (RA3x.W3 c1) <= RA3x.pos3 (RA3x.W3 c2) /\ RA3x.pos3 (RA3x.C3 c1) <= RA3x.pos3 (RA3x.C3 c2).
Proof. exact RA3xproof.never_goes_back_3x. Qed.
Print Assumptions C11_reset_three_stages_never_backwards.

