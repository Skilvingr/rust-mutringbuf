(** * C06: Slices cover exactly the requested ring window
    Only statements closed by [exact]; proofs live in Proofs/. *)
Require Import MRB.Base.Ring.
Require Import MRB.Proofs.SliceItem MRB.Props.Examples.

Theorem C06_chunk :
  forall len ix n : nat, ix < len -> n <= len - 1 -> let '(h, t) := chunk len ix n in h + t = n /\ ix + h <= len /\ t <= ix /\ (t > 0 -> ix + h = len) /\ (forall k : nat, k < n -> wadd len ix k = (if PeanoNat.Nat.ltb k h then ix + k else k - h)).
Proof. exact SpecFacts.C06_chunk. Qed.
Print Assumptions C06_chunk.

Theorem C06_window :
  forall (m : Seq.mstate) (a : Pipe.pipe) (k : Types.stage) (n : nat), Rel.Rel m a -> Pipe.a_usable k a = true -> n <= Pipe.a_avail k a -> exists h t : list BinNums.N, fst (snd (Seq.step m (Types.GetExact k n))) = Types.OSlices (Seq.ix (Seq.it_of k m)) h t /\ (h ++ t)%list = ListAux.sub (Pipe.tape a) (Types.tget k (Pipe.lpos a)) n /\ length h = fst (chunk (Pipe.slen a) (Seq.ix (Seq.it_of k m)) n) /\ (forall j : nat, j < n -> List.nth j (h ++ t) BinNums.N0 = Seq.slot m (wadd (Pipe.slen a) (Seq.ix (Seq.it_of k m)) j)).
Proof. exact SpecFacts.C06_window. Qed.
Print Assumptions C06_window.

Theorem C06_two_slices :
  forall (m : Seq.mstate) (a : Pipe.pipe) (p n : nat), Rel.Rel m a -> Types.tC (Pipe.ppos a) <= p -> p + n <= Types.tC (Pipe.ppos a) + Pipe.slen a -> Seq.rd m (PeanoNat.Nat.modulo p (Pipe.slen a)) n = (List.firstn (fst (chunk (Pipe.slen a) (PeanoNat.Nat.modulo p (Pipe.slen a)) n)) (ListAux.sub (Pipe.tape a) p n), List.skipn (fst (chunk (Pipe.slen a) (PeanoNat.Nat.modulo p (Pipe.slen a)) n)) (ListAux.sub (Pipe.tape a) p n)).
Proof. exact Refine.rd_eq. Qed.
Print Assumptions C06_two_slices.

Theorem C06_slice_write :
  forall (m : Seq.mstate) (a : Pipe.pipe) (p : nat) (vs : list BinNums.N), Rel.Rel m a -> Types.tC (Pipe.ppos a) <= p -> p + length vs <= Types.tC (Pipe.ppos a) + Pipe.slen a -> forall q : nat, Types.tC (Pipe.ppos a) <= q < Types.tC (Pipe.ppos a) + Pipe.slen a -> List.nth (PeanoNat.Nat.modulo q (Pipe.slen a)) (Seq.slots (Seq.wr m (PeanoNat.Nat.modulo p (Pipe.slen a)) vs)) BinNums.N0 = List.nth q (ListAux.write (Pipe.tape a) p vs) BinNums.N0.
Proof. exact Refine.wr_cont. Qed.
Print Assumptions C06_slice_write.

(** slice-wise and item-wise operations are interchangeable: identical Spec states (tape, positions) and values *)
Theorem C06_push_slice_eq_items :
  forall (vs : list BinNums.N) (a : Pipe.pipe), Pipe.a_attached Types.P a = true -> Pipe.sowned a = false -> length vs <= Pipe.a_avail Types.P a -> Types.tP (Pipe.lpos a) = Types.tP (Pipe.ppos a) -> fst (Pipe.sstep a (Types.PushSlice vs)) = push_each a vs.
Proof. exact SliceItem.push_slice_eq_items. Qed.
Print Assumptions C06_push_slice_eq_items.

Theorem C06_copy_slice_eq_items :
  forall (n : nat) (a : Pipe.pipe), Pipe.a_attached Types.C a = true -> Pipe.sowned a = false -> n <= Pipe.a_avail Types.C a -> length (Pipe.tape a) = Types.tC (Pipe.ppos a) + Pipe.slen a -> Types.tC (Pipe.lpos a) = Types.tC (Pipe.ppos a) -> Types.tC (Pipe.lpos a) + n <= length (Pipe.tape a) -> fst (Pipe.sstep a (Types.CopySlice n)) = fst (copy_each a n) /\ fst (snd (Pipe.sstep a (Types.CopySlice n))) = Types.ODst (snd (copy_each a n)).
Proof. exact SliceItem.copy_slice_eq_items. Qed.
Print Assumptions C06_copy_slice_eq_items.

