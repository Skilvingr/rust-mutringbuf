(** * C12: Detached iterators move only locally, to the exact position, until synced
    Only statements closed by [exact]; proofs live in Proofs/. *)
Require Import MRB.Base.Ring.
Require Import MRB.Proofs.SpecFacts.
Require MRB.Conc.RAxproof.

Theorem C12_local :
  forall (a : Pipe.pipe) (k : Types.stage) (o : Types.op), Pipe.a_detached k a = true -> detached_op k o = true -> let a' := fst (Pipe.sstep a o) in observed a' = observed a /\ Pipe.tape a' = Pipe.tape a /\ (forall j : Types.stage, j <> k -> Types.tget j (Pipe.lpos a') = Types.tget j (Pipe.lpos a) /\ Pipe.a_avail j a' = Pipe.a_avail j a).
Proof. exact SpecFacts.C12_local. Qed.
Print Assumptions C12_local.

Theorem C12_position :
  forall (m : Seq.mstate) (a : Pipe.pipe) (k : Types.stage), Rel.Rel m a -> Pipe.a_detached k a = true -> (forall i : nat, Pipe.ok_op a (Types.SetIndex k i) = true -> Seq.ix (Seq.it_of k (fst (Seq.step m (Types.SetIndex k i)))) = i) /\ (forall n : nat, Pipe.ok_op a (Types.GoBack k n) = true -> Seq.ix (Seq.it_of k (fst (Seq.step m (Types.GoBack k n)))) = PeanoNat.Nat.modulo (Types.tget k (Pipe.lpos a) - n) (Pipe.slen a) /\ Seq.ix (Seq.it_of k (fst (Seq.step m (Types.GoBack k n)))) = wsub (Pipe.slen a) (Seq.ix (Seq.it_of k m)) n) /\ (forall n : nat, Pipe.ok_op a (Types.Advance k n) = true -> Seq.ix (Seq.it_of k (fst (Seq.step m (Types.Advance k n)))) = PeanoNat.Nat.modulo (Types.tget k (Pipe.lpos a) + n) (Pipe.slen a)) /\ Seq.ix (Seq.it_of k (fst (Seq.step m (Types.DReset k)))) = Seq.succ_idx k m.
Proof. exact SpecFacts.C12_position. Qed.
Print Assumptions C12_position.

Theorem C12_bounded_after_jump :
  forall (m : Seq.mstate) (a : Pipe.pipe) (o : Types.op) (n : nat) (k : Types.stage), Rel.Rel m a -> Pipe.ok_op a o = true -> let m' := fst (Seq.step m o) in let a' := fst (Pipe.sstep a o) in Pipe.a_usable k a' = true -> (fst (snd (Seq.step m' (Types.GetExact k n))) = Types.ONone <-> Pipe.a_avail k a' < n) /\ fst (snd (Seq.step m' (Types.Avail k))) = Types.ONum (Pipe.a_avail k a').
Proof. exact SpecFacts.C12_bounded_after_jump. Qed.
Print Assumptions C12_bounded_after_jump.

Theorem C12_sync :
  forall (m : Seq.mstate) (a : Pipe.pipe) (k : Types.stage), Rel.Rel m a -> Pipe.a_detached k a = true -> Types.tget k (Seq.pub (fst (Seq.step m (Types.Sync k)))) = Seq.ix (Seq.it_of k m) /\ Types.tget k (Seq.pub (fst (Seq.step m (Types.Attach k)))) = Seq.ix (Seq.it_of k m) /\ Types.tget k (Pipe.ppos (fst (Pipe.sstep a (Types.Sync k)))) = Types.tget k (Pipe.lpos a).
Proof. exact SpecFacts.C12_sync. Qed.
Print Assumptions C12_sync.

Theorem C12_go_back_ring :
  forall len a n : nat, 0 < len -> n <= a -> n <= len -> wsub len (PeanoNat.Nat.modulo a len) n = PeanoNat.Nat.modulo (a - n) len.
Proof. exact Ring.wsub_mod. Qed.
Print Assumptions C12_go_back_ring.


(** under concurrency (Conc/RAx.v: Detach / Sync / Attach commands interleaved with a running producer):
    detached operation is race free; what the consumer has published never exceeds its local position,
    and equals it whenever it is attached *)
Theorem C12_detached_concurrent_race_free :
  forall len script, 0 < len -> MRB.Conc.RAx.race (MRB.Conc.RAx.exec_x len (MRB.Conc.RAx.init_x len) script) = false.
Proof. exact MRB.Conc.RAxproof.spsc_x_race_free. Qed.
Print Assumptions C12_detached_concurrent_race_free.

Theorem C12_published_le_local :
  forall len script, 0 < len ->
  let c := MRB.Conc.RAx.exec_x len (MRB.Conc.RAx.init_x len) script in
  MRB.Conc.RAx.publishedC c <= MRB.Conc.RAx.pos (MRB.Conc.RAx.C c) /\
  (MRB.Conc.RAx.det (MRB.Conc.RAx.C c) = false -> MRB.Conc.RAx.publishedC c = MRB.Conc.RAx.pos (MRB.Conc.RAx.C c)).
Proof. exact MRB.Conc.RAxproof.published_le_local. Qed.
Print Assumptions C12_published_le_local.

(** THREE stages with reset_index / detach / sync_index / attach on the WORKER and the consumer, under concurrency (Conc/RA3x.v) *)
Require MRB.Conc.RA3xproof.
Theorem C12_published_le_local_three_stages :
  forall (len : nat) (script : list (RA3.tid * RA3x.cmd)), 0 < len -> let c := RA3x.exec3_x len (RA3x.init3_x len) script in (RA3x.publishedW3 c <= RA3x.pos3 (RA3x.W3 c) /\ (RA3x.det3 (RA3x.W3 c) = false -> RA3x.publishedW3 c = RA3x.pos3 (RA3x.W3 c))) /\ (RA3x.publishedC3 c <= RA3x.pos3 (RA3x.C3 c) /\ (RA3x.det3 (RA3x.C3 c) = false -> RA3x.publishedC3 c = RA3x.pos3 (RA3x.C3 c))) /\ RA3x.publishedP3 c = RA3x.pos3 (RA3x.P3 c).
Proof. exact RA3xproof.published_le_local_3x. Qed.
Print Assumptions C12_published_le_local_three_stages.

