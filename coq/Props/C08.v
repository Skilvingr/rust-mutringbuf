(** * C08: Every stored value is destroyed exactly once (no leak, no double drop)
    Statements closed by [exact]; proofs live in Proofs/Ledger.v. *)
From Coq Require Import List NArith.
Import ListNotations.
Require Import MRB.Model.Types MRB.Model.Seq MRB.Spec.Pipe.
Require Import MRB.Proofs.Ledger.

Theorem C08_conservation :
  forall (m : Seq.mstate) (a : Pipe.pipe) (o : Types.op) (v : BinNums.N), Rel.Rel m a -> Pipe.ok_op a o = true -> Seq.owned m = true -> vals_ok o = true -> v <> BinNums.N0 -> conserves v m o (Seq.step m o).
Proof. exact Ledger.conservation. Qed.
Print Assumptions C08_conservation.

Theorem C08_history :
  forall (v : BinNums.N) (h : list Types.op), v <> BinNums.N0 -> forall (m : Seq.mstate) (a : Pipe.pipe), Rel.Rel m a -> Seq.owned m = true -> List.forallb vals_ok h = true -> snd (Pipe.srun a h) = true -> cnt v (live (fst (Seq.run m h))) + tot_out v h (snd (Seq.run m h)) = cnt v (live m) + tot_in v (snd (Seq.run m h)).
Proof. exact Ledger.history_conservation. Qed.
Print Assumptions C08_history.

Theorem C08_released_balance :
  forall (v : BinNums.N) (h : list Types.op) (m : Seq.mstate) (a : Pipe.pipe), v <> BinNums.N0 -> Rel.Rel m a -> Seq.owned m = true -> List.forallb vals_ok h = true -> snd (Pipe.srun a h) = true -> Seq.freed (fst (Seq.run m h)) = true -> tot_out v h (snd (Seq.run m h)) = cnt v (live m) + tot_in v (snd (Seq.run m h)).
Proof. exact Ledger.released_balance. Qed.
Print Assumptions C08_released_balance.

Theorem C08_release_drops_all :
  forall l : list BinNums.N, List.existsb zero_ev (Seq.release_evs l) = false /\ (forall v : BinNums.N, v <> BinNums.N0 -> outs v (Seq.release_evs l) = cnt v l).
Proof. exact Ledger.release_skips_empty. Qed.
Print Assumptions C08_release_drops_all.

Theorem C08_overwrite_drops_once :
  forall old : BinNums.N, Seq.isz old = false -> Seq.store_ev Seq.SAssign old = (Types.LDrop old :: nil)%list.
Proof. exact Ledger.assign_occupied. Qed.
Print Assumptions C08_overwrite_drops_once.

Theorem C08_pop_move_hands_out :
  forall (m s : Seq.mstate) (x : BinNums.N) (e : list Types.lev), Seq.pop true m = (s, (Types.OVal x, e)) -> Seq.owned m = true -> e = (if Seq.isz x then (Types.LZeroRead :: nil)%list else (Types.LGive x :: nil)%list).
Proof. exact Ledger.pop_move_events. Qed.
Print Assumptions C08_pop_move_hands_out.

(** non-vacuity: an owned history that respects the contract and the value rule, released at the end *)
Definition c08_cfg := mkConfig [1;2;3;4]%N true true true.
Definition c08_hist : list op := [Push 5; PushSliceClone [6;7]%N; Advance W 2; PopMove; CloneItem; PushInit 8; DropIter P; DropIter C; DropIter W]%N.
Example C08_example :
  match init c08_cfg, a_init c08_cfg with
  | Some m, Some a => snd (srun a c08_hist) = true /\ forallb vals_ok c08_hist = true /\ owned m = true /\
                      freed (fst (run m c08_hist)) = true
  | _, _ => False
  end.
Proof. vm_compute. repeat split. Qed.
