(** * C09: Empty (zeroed) slots are never read or dropped; *_init pushes handle both kinds
    Statements closed by [exact]; proofs live in Proofs/Ledger.v. *)
From Coq Require Import List NArith.
Import ListNotations.
Require Import MRB.Model.Types MRB.Model.Seq.
Require Import MRB.Proofs.Ledger.

Theorem C09_init_store_safe :
  forall old : BinNums.N, List.existsb zero_ev (Seq.store_ev Seq.SInit old) = false.
Proof. exact Ledger.init_store_safe. Qed.
Print Assumptions C09_init_store_safe.

Theorem C09_init_stores_safe :
  forall olds : list BinNums.N, List.existsb zero_ev (Seq.store_evs Seq.SInit olds) = false.
Proof. exact Ledger.init_stores_safe. Qed.
Print Assumptions C09_init_stores_safe.

Theorem C09_release_skips_empty :
  forall l : list BinNums.N, List.existsb zero_ev (Seq.release_evs l) = false /\ (forall v : BinNums.N, v <> BinNums.N0 -> outs v (Seq.release_evs l) = cnt v l).
Proof. exact Ledger.release_skips_empty. Qed.
Print Assumptions C09_release_skips_empty.

Theorem C09_push_state_mode_independent :
  forall (md1 md2 : Seq.smode) (x : BinNums.N) (m : Seq.mstate), fst (Seq.push md1 x m) = fst (Seq.push md2 x m).
Proof. exact Ledger.push_state_mode_independent. Qed.
Print Assumptions C09_push_state_mode_independent.

Theorem C09_push_slice_state_mode_independent :
  forall (md1 md2 : Seq.smode) (cl : bool) (vs : list BinNums.N) (m : Seq.mstate), fst (Seq.push_slice md1 cl vs m) = fst (Seq.push_slice md2 cl vs m).
Proof. exact Ledger.push_slice_state_mode_independent. Qed.
Print Assumptions C09_push_slice_state_mode_independent.

Theorem C09_pop_move_events :
  forall (m s : Seq.mstate) (x : BinNums.N) (e : list Types.lev), Seq.pop true m = (s, (Types.OVal x, e)) -> Seq.owned m = true -> e = (if Seq.isz x then (Types.LZeroRead :: nil)%list else (Types.LGive x :: nil)%list).
Proof. exact Ledger.pop_move_events. Qed.
Print Assumptions C09_pop_move_events.

Theorem C09_conservation :
  forall (m : Seq.mstate) (a : Pipe.pipe) (o : Types.op) (v : BinNums.N), Rel.Rel m a -> Pipe.ok_op a o = true -> Seq.owned m = true -> vals_ok o = true -> v <> BinNums.N0 -> conserves v m o (Seq.step m o).
Proof. exact Ledger.conservation. Qed.
Print Assumptions C09_conservation.

(** non-vacuity / illustration: a zeroed buffer filled through [*_init] pushes (with a pop_move in between, whose
    vacated cell is refilled) delivers the same values, with no zero event, as the same history on initialised data *)
Definition c09_hist : list op := [PushInit 5; PushInit 6; PushInit 7; PopMove; PushInit 8; PopMove; PopMove; PopMove]%N.
Example C09_same_as_init :
  match init (mkConfig [0;0;0;0]%N false true true), init (mkConfig [91;92;93;94]%N false true true) with
  | Some mz, Some md =>
      map fst (snd (run mz c09_hist)) = map fst (snd (run md c09_hist)) /\
      existsb zero_ev (flat_map snd (snd (run mz c09_hist))) = false /\
      existsb zero_ev (flat_map snd (snd (run md c09_hist))) = false
  | _, _ => False
  end.
Proof. vm_compute. repeat split. Qed.
