(** * C01: Consumer gets exactly the pushed items, once, in order, with the worker's edits
    Only statements closed by [exact]; proofs live in Proofs/. *)
Require Import MRB.Proofs.Refine MRB.Proofs.SpecFacts MRB.Proofs.Fifo.

Theorem C01_refines :
  forall (h : list Types.op) (m : Seq.mstate) (a : Pipe.pipe), Rel.Rel m a -> let '(a', ys, ok) := Pipe.srun a h in ok = true -> let '(m', xs) := Seq.run m h in xs = ys /\ Rel.Rel m' a'.
Proof. exact Refine.run_refines. Qed.
Print Assumptions C01_refines.

Theorem C01_step_refines :
  forall (m : Seq.mstate) (a : Pipe.pipe) (o : Types.op), Rel.Rel m a -> Pipe.ok_op a o = true -> refines (Seq.step m o) (Pipe.sstep a o).
Proof. exact Refine.step_refines. Qed.
Print Assumptions C01_step_refines.

Theorem C01_init_refines :
  forall c : Types.config, match Seq.init c with | Some m => match Pipe.a_init c with | Some a => Rel.Rel m a | None => False end | None => match Pipe.a_init c with | Some _ => False | None => True end end.
Proof. exact Refine.init_refines. Qed.
Print Assumptions C01_init_refines.

Theorem C01_frame :
  forall (m : Seq.mstate) (a : Pipe.pipe) (o : Types.op) (k : Types.stage), Rel.Rel m a -> Pipe.ok_op a o = true -> actor o = Some k -> TFrame (Types.tget k (Pipe.lpos a)) (Types.tget k (Pipe.lpos a) + Pipe.a_avail k a) (Pipe.tape a) (Pipe.tape (fst (Pipe.sstep a o))).
Proof. exact SpecFacts.C01_frame. Qed.
Print Assumptions C01_frame.

Theorem C01_windows_disjoint :
  forall (m : Seq.mstate) (a : Pipe.pipe), Rel.Rel m a -> Types.tC (Pipe.lpos a) + Pipe.a_avail Types.C a <= (if Pipe.shasW a then Types.tW (Pipe.lpos a) else Types.tP (Pipe.lpos a)) /\ (Pipe.shasW a = true -> Types.tW (Pipe.lpos a) + Pipe.a_avail Types.W a <= Types.tP (Pipe.lpos a)) /\ Types.tP (Pipe.lpos a) + Pipe.a_avail Types.P a < Types.tC (Pipe.ppos a) + Pipe.slen a /\ Types.tC (Pipe.ppos a) <= Types.tC (Pipe.lpos a).
Proof. exact SpecFacts.C01_windows_disjoint. Qed.
Print Assumptions C01_windows_disjoint.

Theorem C01_read_item :
  forall (a : Pipe.pipe) (mv : bool) (a' : Pipe.pipe) (v : BinNums.N) (evs : list Types.lev), Pipe.a_attached Types.C a = true -> Pipe.sstep a (if mv then Types.PopMove else Types.Pop) = (a', (Types.OVal v, evs)) -> 1 <= Pipe.a_avail Types.C a /\ v = List.nth (Types.tC (Pipe.lpos a)) (Pipe.tape a) BinNums.N0 /\ Types.tC (Pipe.lpos a') = Types.tC (Pipe.lpos a) + 1.
Proof. exact SpecFacts.C01_read_item. Qed.
Print Assumptions C01_read_item.

Theorem C01_read_slice :
  forall (a : Pipe.pipe) (n : nat) (a' : Pipe.pipe) (vs : list BinNums.N) (evs : list Types.lev), Pipe.a_attached Types.C a = true -> Pipe.sowned a = false -> Pipe.sstep a (Types.CopySlice n) = (a', (Types.ODst vs, evs)) -> n <= Pipe.a_avail Types.C a /\ vs = ListAux.sub (Pipe.tape a) (Types.tC (Pipe.lpos a)) n /\ Types.tC (Pipe.lpos a') = Types.tC (Pipe.lpos a) + n.
Proof. exact SpecFacts.C01_read_slice. Qed.
Print Assumptions C01_read_slice.

Theorem C01_push_position :
  forall (a : Pipe.pipe) (v : BinNums.N) (a' : Pipe.pipe) (evs : list Types.lev), Pipe.a_attached Types.P a = true -> Pipe.sstep a (Types.Push v) = (a', (Types.OOk, evs)) -> Types.tP (Pipe.lpos a) < length (Pipe.tape a) -> List.nth (Types.tP (Pipe.lpos a)) (Pipe.tape a') BinNums.N0 = v /\ Types.tP (Pipe.lpos a') = Types.tP (Pipe.lpos a) + 1.
Proof. exact SpecFacts.C01_push_position. Qed.
Print Assumptions C01_push_position.

(** END-TO-END FIFO (two-stage pipeline, plain items, push / push_slice / pop / copy_item / copy_slice / peeks): what the
    consumer has obtained, followed by what is still in the buffer, is exactly what was in flight at the start followed by the
    accepted pushes - nothing lost, duplicated, reordered or invented; from a fresh buffer the consumed sequence is a prefix
    of the accepted one; at most len-1 items are in flight *)
Theorem C01_fifo :
  forall (m : Seq.mstate) (a : Pipe.pipe) (h : list Types.op), Rel.Rel m a -> Pipe.shasW a = false -> Pipe.sowned a = false -> Types.tP (Pipe.sdet a) = false -> Types.tC (Pipe.sdet a) = false -> List.forallb fifo_op h = true -> snd (Pipe.srun a h) = true /\ (pending a ++ accepted a h)%list = (consumed a h ++ pending (fst (fst (Pipe.srun a h))))%list /\ length (pending (fst (fst (Pipe.srun a h)))) <= Pipe.slen a - 1.
Proof. exact Fifo.FIFO_rel. Qed.
Print Assumptions C01_fifo.

Theorem C01_fifo_from_init :
  forall (c : Types.config) (a : Pipe.pipe) (h : list Types.op), Pipe.a_init c = Some a -> Types.c_worker c = false -> Types.c_owned c = false -> List.forallb fifo_op h = true -> snd (Pipe.srun a h) = true /\ accepted a h = (consumed a h ++ pending (fst (fst (Pipe.srun a h))))%list /\ (exists rest : list BinNums.N, accepted a h = (consumed a h ++ rest)%list) /\ length (pending (fst (fst (Pipe.srun a h)))) <= length (Types.c_init c) - 1.
Proof. exact Fifo.FIFO_init. Qed.
Print Assumptions C01_fifo_from_init.

(** THREE-STAGE end-to-end statement (Proofs/Fifo3.v): what the consumer obtains at position p is the value pushed at p with exactly the
    worker's edits recorded for p, in order; edits only touch published-but-unreleased positions; released positions never change *)
Require MRB.Proofs.Fifo3.
Theorem C01_fifo3 :
  forall (h : list Types.op) (a : Pipe.pipe), Fifo3.Inv3 a -> List.forallb Fifo3.fifo3_op h = true -> snd (Pipe.srun a h) = true -> let a' := Fifo.sfinal a h in Types.tP (Pipe.ppos a') = Types.tP (Pipe.ppos a) + length (Fifo.accepted a h) /\ Types.tC (Pipe.ppos a') = Types.tC (Pipe.ppos a) + length (Fifo.consumed a h) /\ Fifo.consumed a h = ListAux.sub (Pipe.tape a') (Types.tC (Pipe.ppos a)) (Types.tC (Pipe.ppos a') - Types.tC (Pipe.ppos a)) /\ (forall p : nat, p < Types.tP (Pipe.ppos a') -> List.nth p (Pipe.tape a') BinNums.N0 = Fifo3.expected a h p) /\ Fifo.consumed a h = List.map (Fifo3.expected a h) (List.seq (Types.tC (Pipe.ppos a)) (length (Fifo.consumed a h))) /\ (forall (q : nat) (e : Fifo3.wedit), List.In (q, e) (Fifo3.edits a h) -> Types.tW (Pipe.ppos a) <= q < Types.tP (Pipe.ppos a')) /\ Types.tC (Pipe.ppos a') <= Types.tW (Pipe.ppos a') /\ Types.tW (Pipe.ppos a') <= Types.tP (Pipe.ppos a') /\ Types.tP (Pipe.ppos a') - Types.tC (Pipe.ppos a') <= Pipe.slen a - 1.
Proof. exact Fifo3.FIFO3. Qed.
Print Assumptions C01_fifo3.

Theorem C01_fifo3_discipline :
  forall (h1 : list Types.op) (o : Types.op) (h2 : list Types.op) (a : Pipe.pipe), Fifo3.Inv3 a -> List.forallb Fifo3.fifo3_op (h1 ++ o :: h2) = true -> snd (Pipe.srun a (h1 ++ o :: h2)) = true -> let a1 := Fifo.sfinal a h1 in let a' := Fifo.sfinal a (h1 ++ o :: h2) in (forall (q : nat) (e : Fifo3.wedit), List.In (q, e) (Fifo3.edits1 a1 o) -> Types.tC (Pipe.ppos a1) <= Types.tW (Pipe.ppos a1) /\ Types.tW (Pipe.ppos a1) <= q < Types.tP (Pipe.ppos a1)) /\ Fifo.consumed1 a1 o = ListAux.sub (Pipe.tape a1) (Types.tC (Pipe.ppos a1)) (length (Fifo.consumed1 a1 o)) /\ Types.tC (Pipe.ppos a1) + length (Fifo.consumed1 a1 o) <= Types.tW (Pipe.ppos a1) /\ (forall j : nat, j < length (Fifo.accepted1 a1 o) -> List.nth (Types.tP (Pipe.ppos a1) + j) (Pipe.tape (fst (Pipe.sstep a1 o))) BinNums.N0 = List.nth j (Fifo.accepted1 a1 o) BinNums.N0) /\ (forall p : nat, p < Types.tW (Pipe.ppos a1) -> List.nth p (Pipe.tape a') BinNums.N0 = List.nth p (Pipe.tape a1) BinNums.N0) /\ Types.tW (Pipe.ppos a1) <= Types.tW (Pipe.ppos a').
Proof. exact Fifo3.FIFO3_discipline. Qed.
Print Assumptions C01_fifo3_discipline.

Theorem C01_fifo3_model :
  forall (m : Seq.mstate) (a : Pipe.pipe) (h : list Types.op), Rel.Rel m a -> Pipe.shasW a = true -> Pipe.sowned a = false -> Types.tP (Pipe.sdet a) = false -> Types.tW (Pipe.sdet a) = false -> Types.tC (Pipe.sdet a) = false -> List.forallb Fifo3.fifo3_op h = true -> snd (Pipe.srun a h) = true -> let a' := fst (fst (Pipe.srun a h)) in snd (Seq.run m h) = snd (fst (Pipe.srun a h)) /\ Rel.Rel (fst (Seq.run m h)) a' /\ Fifo3.consumed_outs h (snd (Seq.run m h)) = Fifo.consumed a h /\ Types.tP (Pipe.ppos a') = Types.tP (Pipe.ppos a) + length (Fifo.accepted a h) /\ Types.tC (Pipe.ppos a') = Types.tC (Pipe.ppos a) + length (Fifo.consumed a h) /\ Fifo.consumed a h = ListAux.sub (Pipe.tape a') (Types.tC (Pipe.ppos a)) (Types.tC (Pipe.ppos a') - Types.tC (Pipe.ppos a)) /\ (forall p : nat, p < Types.tP (Pipe.ppos a') -> List.nth p (Pipe.tape a') BinNums.N0 = Fifo3.expected a h p) /\ Fifo.consumed a h = List.map (Fifo3.expected a h) (List.seq (Types.tC (Pipe.ppos a)) (length (Fifo.consumed a h))) /\ (forall (q : nat) (e : Fifo3.wedit), List.In (q, e) (Fifo3.edits a h) -> Types.tW (Pipe.ppos a) <= q < Types.tP (Pipe.ppos a')) /\ Types.tC (Pipe.ppos a') <= Types.tW (Pipe.ppos a') /\ Types.tW (Pipe.ppos a') <= Types.tP (Pipe.ppos a') /\ Types.tP (Pipe.ppos a') - Types.tC (Pipe.ppos a') <= Pipe.slen a - 1.
Proof. exact Fifo3.FIFO3_rel. Qed.
Print Assumptions C01_fifo3_model.

Theorem C01_fifo3_from_init :
  forall (c : Types.config) (a : Pipe.pipe) (h : list Types.op), Pipe.a_init c = Some a -> Types.c_worker c = true -> Types.c_owned c = false -> List.forallb Fifo3.fifo3_op h = true -> snd (Pipe.srun a h) = true -> let a' := fst (fst (Pipe.srun a h)) in Fifo.consumed a h = List.map (fun k : nat => Fifo3.apply_edits (Fifo3.edits_at k (Fifo3.edits a h)) (List.nth k (Fifo.accepted a h) BinNums.N0)) (List.seq 0 (length (Fifo.consumed a h))) /\ length (Fifo.consumed a h) <= length (Fifo.accepted a h) /\ length (Fifo.accepted a h) - length (Fifo.consumed a h) <= length (Types.c_init c) - 1 /\ Types.tP (Pipe.ppos a') = length (Fifo.accepted a h) /\ Types.tC (Pipe.ppos a') = length (Fifo.consumed a h) /\ Types.tC (Pipe.ppos a') <= Types.tW (Pipe.ppos a') /\ Types.tW (Pipe.ppos a') <= Types.tP (Pipe.ppos a') /\ (forall (q : nat) (e : Fifo3.wedit), List.In (q, e) (Fifo3.edits a h) -> q < length (Fifo.accepted a h)).
Proof. exact Fifo3.FIFO3_init. Qed.
Print Assumptions C01_fifo3_from_init.

Theorem C01_fifo3_no_edits :
  forall (c : Types.config) (a : Pipe.pipe) (h : list Types.op), Pipe.a_init c = Some a -> Types.c_worker c = true -> Types.c_owned c = false -> List.forallb Fifo3.fifo3_op h = true -> snd (Pipe.srun a h) = true -> Fifo3.edits a h = nil -> Fifo.consumed a h = List.firstn (length (Fifo.consumed a h)) (Fifo.accepted a h).
Proof. exact Fifo3.FIFO3_init_no_edits. Qed.
Print Assumptions C01_fifo3_no_edits.

