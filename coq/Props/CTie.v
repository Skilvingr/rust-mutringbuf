(** * C-tie: the functions of [src/ring_buffer/wrappers/unsafe_sync_cell.rs], translated on every run (gen/CellFns.v, vocabulary
      [Model/CellM.v]), are the slot primitives of the Model - for EVERY representation of items by bytes in which a live value is
      never all-zero bytes ([repr_ok]: the hypothesis C08 and C09 state).  Part of the obligations of C08 and C09: the D-tie
      (Props/DTie.v) proves the data-touching functions equal to the Model GIVEN these primitives; here the primitives themselves. *)
From Coq Require Import List NArith.
Import ListNotations.
Require Import MRB.Model.Seq MRB.Model.CellM MRB.gen.CellFns MRB.Proofs.CellTie.

Theorem CT_source_translated : cell_clean = true.
Proof. exact cell_closed. Qed.
Print Assumptions CT_source_translated.

(** the emptiness test looks at all [size_of::<T>()] bytes and answers "empty" exactly for the empty slot *)
Theorem CT_check_zeroed : forall R, repr_ok R -> forall v,
  crun R (g_check_zeroed R PSelf) v = Some (isz v, mkC (r_enc R v) []).
Proof. exact tie_check_zeroed. Qed.
Print Assumptions CT_check_zeroed.

(** [take_inner] hands the item out and leaves the EMPTY slot; [inner_duplicate] / [inner_ref] / [inner_ref_mut] / [as_mut_ptr] leave it as it is *)
Theorem CT_take_and_read : forall R, repr_ok R -> forall v,
  crun R (g_take_inner R) v = Some (v, mkC (r_enc R 0%N) []) /\
  crun R (g_inner_duplicate R) v = Some (v, mkC (r_enc R v) []) /\
  crun R (g_inner_ref R) v = Some (v, mkC (r_enc R v) []) /\
  crun R (g_inner_ref_mut R) v = Some (v, mkC (r_enc R v) []) /\
  crun R (g_as_mut_ptr R) v = Some (PSelf, mkC (r_enc R v) []).
Proof.
  intros R OK v. destruct (tie_inner_ref R OK v) as [A B].
  split; [exact (tie_take_inner R OK v)|]. split; [exact (tie_inner_duplicate R OK v)|]. split; [exact A|]. split; [exact B|].
  exact (tie_as_mut_ptr R OK v).
Qed.
Print Assumptions CT_take_and_read.

(** dropping a cell runs the item's destructor exactly when the slot is occupied - once - and never on an empty slot
    (the rule [Seq.release_evs] applies to every slot when the buffer is released) *)
Theorem CT_drop : forall R, repr_ok R -> forall v,
  crun R (g_drop R) v = Some (tt, mkC (r_enc R v) (if isz v then [] else [CDropped v])).
Proof. exact tie_drop. Qed.
Print Assumptions CT_drop.

(** cloning a cell clones the item exactly when the slot is occupied; an empty slot is never read as an item and clones to an empty cell *)
Theorem CT_clone : forall R, repr_ok R -> forall v,
  crun R (g_clone R) v = Some (if isz v then (r_enc R 0%N) else r_enc R (r_clone R v), mkC (r_enc R v) (if isz v then [] else [CCloned v])).
Proof. intros R OK v. rewrite (tie_clone R OK v). unfold a_clone. destruct (isz v); reflexivity. Qed.
Print Assumptions CT_clone.

(** the constructors build the cell holding that value / the empty cell *)
Theorem CT_ctors : forall R, repr_ok R -> forall x s,
  g_new R x s = Some (r_enc R x, s) /\ g_from R x s = Some (r_enc R x, s) /\ g_new_zeroed R s = Some (r_enc R 0%N, s) /\
  g_default R s = Some (r_enc R (r_default R), mkC (c_mem s) (c_evs s ++ [CDefault])).
Proof. exact tie_ctors. Qed.
Print Assumptions CT_ctors.

(** the hypothesis is satisfiable (two-byte little-endian items) *)
Example CT_repr_exists : repr_ok le2.
Proof. exact le2_ok. Qed.
