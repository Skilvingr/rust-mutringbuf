(** * D-tie for the vmem build: the bodies compiled with feature [vmem] (gen/DataFnsV.v, translated from the source on every run) -
      [next_chunk(_mut)] handing out ONE slice of the double mapping, [_push_slice] / [_extract_slice] running their closure once over
      it - do exactly what the Model's functions do: a window of the double mapping starting at the local index is, cell by cell, the
      ring window (head run up to the physical end, tail run from slot 0).  Statements closed by [exact]; part of the obligations of C17. *)
From Coq Require Import List Arith NArith.
Require Import MRB.Base.Ring MRB.Base.ListAux MRB.Model.Types MRB.Model.Seq MRB.Model.DataM.
Require Import MRB.Proofs.DataTie MRB.Proofs.DataTieSlices MRB.Proofs.DataTieV.

Theorem DTV_source_translated : DataFnsV.data_clean = true.
Proof. exact data_v_closed. Qed.
Print Assumptions DTV_source_translated.

(** one slice [count] cells long, starting at the local index, inside the [2*len] cells of the double mapping *)
Theorem DTV_chunks : forall k s src out n, wf k s ->
  (exists r d, drun (DataFnsV.d_next_chunk (denv_of k s src) n) (view k s out) = Some (r, d) /\ grantv_res k s out n r d) /\
  (exists r d, drun (DataFnsV.d_next_chunk_mut (denv_of k s src) n) (view k s out) = Some (r, d) /\ grantv_res k s out n r d) /\
  (exists r d, drun (DataFnsV.d_get_workable_slice_exact (denv_of k s src) n) (view k s out) = Some (r, d) /\ grantv_res k s out n r d) /\
  (exists r d, drun (DataFnsV.d_get_next_slices_mut (denv_of k s src) n) (view k s out) = Some (r, d) /\ grantv_res k s out n r d) /\
  (exists r d, drun (DataFnsV.d_peek_slice (denv_of k s src) n) (view k s out) = Some (r, d) /\ grantv_res k s out n r d).
Proof.
  intros k s src out n H. destruct (tie_slice_wrappers_v k s src out n H) as (A & B & C0).
  repeat split; [exact (tie_next_chunk_v k s src out n H) | exact (tie_next_chunk_mut_v k s src out n H) | exact A | exact B | exact C0].
Qed.
Print Assumptions DTV_chunks.

(** what such a slice reads is the Model's head slice followed by its tail slice (C17: "a contiguous window resolves to the ring slots") *)
Theorem DTV_mirror_reads_window : forall len (slots0 : list cell) o n, length slots0 = len -> o < len -> n <= len ->
  let '(h, t) := chunk len o n in
  map (fun j => nth ((o + j) mod len) slots0 0%N) (seq 0 n) = sub slots0 o h ++ sub slots0 0 t.
Proof. exact mirror_reads_window. Qed.
Print Assumptions DTV_mirror_reads_window.

Theorem DTV_push_slices : forall s vs out, wf P s -> det (it_of P s) = false ->
  (owned s = false -> exists r d, drun (DataFnsV.d_push_slice (denv_of P s vs) (src_sl (denv_of P s vs))) (view P s out) = Some (r, d) /\ push_slice_res s vs out SCopy false r d) /\
  (owned s = false -> exists r d, drun (DataFnsV.d_push_slice_init (denv_of P s vs) (src_sl (denv_of P s vs))) (view P s out) = Some (r, d) /\ push_slice_res s vs out SCopy false r d) /\
  (exists r d, drun (DataFnsV.d_push_slice_clone (denv_of P s vs) (src_sl (denv_of P s vs))) (view P s out) = Some (r, d) /\ push_slice_res s vs out SAssign true r d) /\
  (exists r d, drun (DataFnsV.d_push_slice_clone_init (denv_of P s vs) (src_sl (denv_of P s vs))) (view P s out) = Some (r, d) /\ push_slice_res s vs out SInit true r d).
Proof.
  intros s vs out H A. repeat split;
  [exact (tie_push_slice_v s vs out H A) | exact (tie_push_slice_init_v s vs out H A) | exact (tie_push_slice_clone_v s vs out H A) | exact (tie_push_slice_clone_init_v s vs out H A)].
Qed.
Print Assumptions DTV_push_slices.

Theorem DTV_extract_slices : forall s src out, wf C s -> det (it_of C s) = false ->
  (owned s = false -> exists r d, drun (DataFnsV.d_copy_slice (denv_of C s src) (mkSl RDst 0 (length out))) (view C s out) = Some (r, d) /\ extract_slice_res s out false r d) /\
  (exists r d, drun (DataFnsV.d_clone_slice (denv_of C s src) (mkSl RDst 0 (length out))) (view C s out) = Some (r, d) /\ extract_slice_res s out true r d).
Proof. intros s src out H A. split; [exact (tie_copy_slice_v s src out H A) | exact (tie_clone_slice_v s src out H A)]. Qed.
Print Assumptions DTV_extract_slices.
