(** * C02: Concurrent pipeline: the consumed sequence is always a prefix of the produced one
    Proved for the three-stage release/acquire view machine (Conc/RA3.v + Conc/RA3values.v): for every length, every pushed
    sequence [pv], every worker transformation [f], every interleaving at atomic-access granularity and every admissible stale
    read, the consumer's log is at every moment [f (pv len); f (pv (len+1)); ...] up to the number of reads it has made.
    Multi-slot (slice) operations: C02_prefix_slices; reset_index / detached consumer: C02_values_reset_detached ff.
    PARTIAL: detached worker / producer forms are covered by the sequential refinement, the event-trace
    correspondence and the scripted executions; C11 conformance of compiler/CPU assumed. *)
From Coq Require Import List.
Import ListNotations.
Require Import MRB.Model.Trace MRB.Conc.RA3 MRB.Conc.RA3values MRB.gen.Profile.
From Coq Require Import Sorted.
Require MRB.Conc.RAxvalues.

Theorem C02_prefix :
  forall (len : nat) (pv f init : nat -> nat) (script : list (tid * nat)), 0 < len ->
  let '(c, v) := vexec len pv f (init3 len) (vinit0 len init) script in
  clog v = map (fun p => f (pv p)) (seq len (done (C3 c) - len)) /\ race3 c = false.
Proof. exact RA3values.consumed_is_prefix. Qed.
Print Assumptions C02_prefix.

(** the value layer is a faithful extension: its machine component is the machine of the race-freedom theorem *)
Theorem C02_same_machine :
  forall (len : nat) (pv f : nat -> nat) (script : list (tid * nat)) (c : cfg3) (v : vst),
  fst (vexec len pv f c v script) = exec3 len c script.
Proof. intros. apply RA3values.vexec_fst. Qed.
Print Assumptions C02_same_machine.

(** MULTI-SLOT windows (slice operations of any size; other threads interleave between the slot accesses of one call), three
    stages: at every moment - also in the middle of a window - the consumer's log is the prefix with the worker's edits *)
Theorem C02_prefix_slices :
  forall (len : nat) (pv f init : nat -> nat) (script : list (RA3.tid * nat * nat)), 0 < len ->
  let '(c, v) := RA3nvalues.vexec_n len pv f (RA3n.init3_n len) (RA3nvalues.vinit0 len init) script in
  c = RA3n.exec3_n len (RA3n.init3_n len) script /\
  RA3nvalues.clog v = map (fun p => f (pv p)) (seq len (RA3nvalues.consumed len c)) /\
  RA3n.race3 c = false.
Proof. exact RA3nvalues.consumed_is_prefix_n. Qed.
Print Assumptions C02_prefix_slices.

(** two stages with reset_index and a detached consumer: every value read is the value pushed at that position (never a stale,
    overwritten or not yet written slot), positions strictly increase and stay below what the producer published (nothing
    duplicated or reordered); without resets the log is exactly a prefix (nothing lost) *)
Theorem C02_values_reset_detached :
  forall (len : nat) (pv init : nat -> nat) (script : list (bool * RAx.cmd)), 0 < len ->
  let v := RAxvalues.vrun len pv init script in RAxvalues.clog v = map pv (RAxvalues.plog v).
Proof. exact RAxvalues.consumed_values_x. Qed.
Print Assumptions C02_values_reset_detached.

Theorem C02_positions_increasing :
  forall (len : nat) (pv init : nat -> nat) (script : list (bool * RAx.cmd)), 0 < len ->
  let c := RAx.exec_x len (RAx.init_x len) script in
  let v := RAxvalues.vrun len pv init script in
  StronglySorted lt (RAxvalues.plog v) /\ Forall (fun p => len <= p < RAx.publishedP c) (RAxvalues.plog v).
Proof. exact RAxvalues.consumed_positions_increasing_x. Qed.
Print Assumptions C02_positions_increasing.

Theorem C02_no_reset_prefix :
  forall (len : nat) (pv init : nat -> nat) (script : list (bool * RAx.cmd)), 0 < len ->
  (forall t j, ~ In (t, RAx.Reset j) script) ->
  let v := RAxvalues.vrun len pv init script in RAxvalues.plog v = seq len (length (RAxvalues.plog v)).
Proof. exact RAxvalues.no_reset_prefix_x. Qed.
Print Assumptions C02_no_reset_prefix.

Theorem C02_observed_ok : profile_ok Profile.observed = true /\ Profile.extractor_clean = true.
Proof. vm_compute. split; reflexivity. Qed.

(** non-vacuity: a concrete execution with a stale read in which the consumer has read two transformed items *)
Example C02_example :
  let '(c, v) := vexec 3 (fun p => 10 * p) (fun x => x + 1) (init3 3) (vinit0 3 (fun _ => 0))
      [(TP,0);(TP,0);(TP,0);(TP,0);(TP,0);(TP,0);(TW,9);(TW,0);(TW,0);(TC,1);(TC,0);(TC,0);(TW,0);(TW,0);(TW,0);(TC,0);(TC,9);(TC,0);(TC,0)] in
  clog v = [31; 41].
Proof. vm_compute. reflexivity. Qed.

(** JOINED CONSERVATION (second sentence of the property; Conc/ConcExtras.v): at every moment, and in particular once all threads are between
    operations, consumed ++ still-in-buffer (ring order, consumer to producer) = the accepted pushes, the worker's transformation applied
    exactly to the released ones *)
Require MRB.Conc.ConcExtras.
Theorem C02_conservation_any_time :
  forall (len : nat) (pv f init : nat -> nat) (script : list (RA3.tid * nat * nat)), 0 < len -> let '(c, v) := RA3nvalues.vexec_n len pv f (RA3n.init3_n len) (RA3nvalues.vinit0 len init) script in c = RA3n.exec3_n len (RA3n.init3_n len) script /\ (RA3nvalues.clog v ++ ConcExtras.ThreeStage.ring3 len v (RA3nvalues.fr (RA3n.C3 c)) (RA3nvalues.fr (RA3n.P3 c)))%list = List.map (ConcExtras.ThreeStage.item3 pv f (RA3nvalues.fr (RA3n.W3 c))) (List.seq len (RA3nvalues.fr (RA3n.P3 c) - len)).
Proof. exact ConcExtras.ThreeStage.conservation_3n_any_time. Qed.
Print Assumptions C02_conservation_any_time.

Theorem C02_joined_conservation :
  forall (len : nat) (pv f init : nat -> nat) (script : list (RA3.tid * nat * nat)), 0 < len -> let '(c, v) := RA3nvalues.vexec_n len pv f (RA3n.init3_n len) (RA3nvalues.vinit0 len init) script in RA3n.pc3 (RA3n.P3 c) = 0 -> RA3n.pc3 (RA3n.W3 c) = 0 -> RA3n.pc3 (RA3n.C3 c) = 0 -> (RA3nvalues.clog v ++ ConcExtras.ThreeStage.ring3 len v (RA3n.pos3 (RA3n.C3 c)) (RA3n.pos3 (RA3n.P3 c)))%list = List.map (ConcExtras.ThreeStage.item3 pv f (RA3n.pos3 (RA3n.W3 c))) (List.seq len (RA3n.pos3 (RA3n.P3 c) - len)).
Proof. exact ConcExtras.ThreeStage.joined_conservation_3n. Qed.
Print Assumptions C02_joined_conservation.

Theorem C02_joined_conservation_caught_up :
  forall (len : nat) (pv f init : nat -> nat) (script : list (RA3.tid * nat * nat)), 0 < len -> let '(c, v) := RA3nvalues.vexec_n len pv f (RA3n.init3_n len) (RA3nvalues.vinit0 len init) script in RA3n.pc3 (RA3n.P3 c) = 0 -> RA3n.pc3 (RA3n.W3 c) = 0 -> RA3n.pc3 (RA3n.C3 c) = 0 -> RA3n.pos3 (RA3n.W3 c) = RA3n.pos3 (RA3n.P3 c) -> (RA3nvalues.clog v ++ ConcExtras.ThreeStage.ring3 len v (RA3n.pos3 (RA3n.C3 c)) (RA3n.pos3 (RA3n.P3 c)))%list = List.map (fun p : nat => f (pv p)) (List.seq len (RA3n.pos3 (RA3n.P3 c) - len)).
Proof. exact ConcExtras.ThreeStage.joined_conservation_3n_caught_up. Qed.
Print Assumptions C02_joined_conservation_caught_up.

Theorem C02_joined_conservation_detached :
  forall (len : nat) (pv init : nat -> nat) (script : list (bool * RAx.cmd)), 0 < len -> (forall j : nat, ~ List.In (false, RAx.Reset j) script) -> let c := RAx.exec_x len (RAx.init_x len) script in let v := RAxvalues.vrun len pv init script in RAx.pc (RAx.P c) = 0 -> RAx.pc (RAx.C c) = 0 -> (RAxvalues.clog v ++ ConcExtras.Extended.ringx len v (RAx.pos (RAx.C c)) (RAx.pos (RAx.P c)))%list = List.map pv (List.seq len (RAx.pos (RAx.P c) - len)).
Proof. exact ConcExtras.Extended.joined_conservation_x. Qed.
Print Assumptions C02_joined_conservation_detached.

(** THREE stages with reset_index / detach / sync_index / attach on worker and consumer (Conc/RA3xvalues.v): every value the consumer gets is the
    pushed value, transformed exactly once iff the worker touched that position (never if the worker skipped it by reset_index), positions strictly
    increase and stay below the worker's PUBLISHED position; without resets: exactly the prefix, everything transformed; the worker never edits a
    position the consumer has read or could read *)
Require MRB.Conc.RA3xvalues.
Theorem C02_values_three_stages_reset_detached :
  forall (len : nat) (pv f init : nat -> nat) (script : list (RA3.tid * RA3x.cmd)), 0 < len -> let v := RA3xvalues.vrun len pv f init script in RA3xvalues.clog v = List.map (fun p : nat => if List.existsb (PeanoNat.Nat.eqb p) (RA3xvalues.wlog v) then f (pv p) else pv p) (RA3xvalues.plog v).
Proof. exact RA3xvalues.consumed_values_3x. Qed.
Print Assumptions C02_values_three_stages_reset_detached.

Theorem C02_positions_three_stages_reset_detached :
  forall (len : nat) (pv f init : nat -> nat) (script : list (RA3.tid * RA3x.cmd)), 0 < len -> let c := RA3x.exec3_x len (RA3x.init3_x len) script in let v := RA3xvalues.vrun len pv f init script in Sorted.StronglySorted lt (RA3xvalues.plog v) /\ List.Forall (fun p : nat => len <= p < RA3x.publishedW3 c) (RA3xvalues.plog v) /\ Sorted.StronglySorted lt (RA3xvalues.wlog v) /\ List.Forall (fun p : nat => len <= p < RA3x.publishedP3 c) (RA3xvalues.wlog v).
Proof. exact RA3xvalues.consumed_positions_increasing_3x. Qed.
Print Assumptions C02_positions_three_stages_reset_detached.

Theorem C02_no_reset_prefix_three_stages :
  forall (len : nat) (pv f init : nat -> nat) (script : list (RA3.tid * RA3x.cmd)), 0 < len -> (forall (t : RA3.tid) (j : nat), ~ List.In (t, RA3x.Reset j) script) -> let v := RA3xvalues.vrun len pv f init script in RA3xvalues.plog v = List.seq len (length (RA3xvalues.plog v)) /\ RA3xvalues.wlog v = List.seq len (length (RA3xvalues.wlog v)) /\ RA3xvalues.clog v = List.map (fun p : nat => f (pv p)) (RA3xvalues.plog v).
Proof. exact RA3xvalues.no_reset_prefix_3x. Qed.
Print Assumptions C02_no_reset_prefix_three_stages.

Theorem C02_edit_status_frozen :
  forall (len : nat) (pv f init : nat -> nat) (s1 s2 : list (RA3.tid * RA3x.cmd)), 0 < len -> let c1 := RA3x.exec3_x len (RA3x.init3_x len) s1 in let v1 := RA3xvalues.vrun len pv f init s1 in let v2 := RA3xvalues.vrun len pv f init (s1 ++ s2) in (exists l : list nat, RA3xvalues.wlog v2 = (RA3xvalues.wlog v1 ++ l)%list /\ List.Forall (fun p : nat => RA3x.pos3 (RA3x.W3 c1) + RA3x.off3 (RA3x.W3 c1) <= p) l) /\ (exists l : list nat, RA3xvalues.plog v2 = (RA3xvalues.plog v1 ++ l)%list) /\ (exists l : list nat, RA3xvalues.clog v2 = (RA3xvalues.clog v1 ++ l)%list) /\ (forall p : nat, p < RA3x.pos3 (RA3x.W3 c1) + RA3x.off3 (RA3x.W3 c1) -> List.existsb (PeanoNat.Nat.eqb p) (RA3xvalues.wlog v2) = List.existsb (PeanoNat.Nat.eqb p) (RA3xvalues.wlog v1)) /\ RA3x.publishedW3 c1 <= RA3x.pos3 (RA3x.W3 c1) + RA3x.off3 (RA3x.W3 c1) /\ List.Forall (fun p : nat => p < RA3x.publishedW3 c1) (RA3xvalues.plog v1).
Proof. exact RA3xvalues.edit_status_frozen_3x. Qed.
Print Assumptions C02_edit_status_frozen.

