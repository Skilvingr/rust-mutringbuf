(** * C07: Heap buffer freed exactly once, after its last iterator, in any drop order/race
    Concurrent half: the liveness protocol (one read-modify-write per dropped iterator) as a finite machine; the theorems
    hold for every schedule of any length (reachable-state closure computed and checked inside the kernel).
    Sequential half: [drop_iter] of the Model (tied to the code by the `life` suite: all drop orders at random states). *)
From Coq Require Import List Bool.
Import ListNotations.
Require Import MRB.Model.Types MRB.Model.Seq MRB.Model.Trace MRB.Conc.Drop MRB.Proofs.ConcClosing MRB.Proofs.ConcFacts MRB.gen.Profile.

Theorem C07_once_three : forall script : list th, good (mkB3 true true true) (dexec true true (mkB3 true true true) script) = true.
Proof. exact Drop.drop3_good. Qed.
Print Assumptions C07_once_three.

Theorem C07_once_two : forall script : list th, good (mkB3 true false true) (dexec true true (mkB3 true false true) script) = true.
Proof. exact Drop.drop2_good. Qed.
Print Assumptions C07_once_two.

Theorem C07_once_any_ok_profile : forall p : profile, profile_ok p = true -> forall script : list th,
  good (mkB3 true true true) (dexec (ge_acq (p_alive_rmw p)) (ge_rel (p_alive_rmw p)) (mkB3 true true true) script) = true /\
  good (mkB3 true false true) (dexec (ge_acq (p_alive_rmw p)) (ge_rel (p_alive_rmw p)) (mkB3 true false true) script) = true.
Proof. exact ConcClosing.drop_good. Qed.
Print Assumptions C07_once_any_ok_profile.

(** the source: acquire-release RMW whose returned value alone decides, fences present *)
Theorem C07_source_closed : profile_ok Profile.observed = true /\ Profile.rmw_decides = true /\ Profile.extractor_clean = true.
Proof. vm_compute. repeat split. Qed.
Print Assumptions C07_source_closed.

Theorem C07_seq_drop : forall (m : mstate) (k : stage),
  let m' := fst (drop_iter k m) in
  tget k (flag m') = false /\ (forall j, j <> k -> tget j (flag m') = tget j (flag m)) /\
  here (it_of k m') = false /\
  (freed m' = (freed m || (negb (tP (flag m')) && negb (tW (flag m')) && negb (tC (flag m')) && heap m))) /\
  (heap m = false -> freed m' = freed m) /\ slots m' = slots m /\ pub m' = pub m.
Proof. exact ConcFacts.C07_seq_drop. Qed.
Print Assumptions C07_seq_drop.

(** what was wrong on the pinned tree (fixed by 7af37e8), and what a weakened RMW would break *)
Theorem C07_pinned_refuted : exists s, pfrees (prun s) = 2.
Proof. exact Drop.pinned_protocol_refuted. Qed.
Example C07_relaxed_rmw_is_bad : uaf (dexec false false (mkB3 true false true) [TP; TC; TP; TC; TC]) = true.
Proof. exact Drop.relaxed_rmw_is_bad. Qed.

(** observing a peer as dead (Conc/DeadObs.v): release/acquire machine with stale reads, a second dropping thread in the release sequence *)
Require MRB.Conc.DeadObs.
Theorem C07_dead_only_after_drop :
  forall (k : nat) (acq rel xacq zacq zrel : bool) (script : list (DeadObs.tid * nat)), let c := DeadObs.exec k acq rel xacq zacq zrel script in DeadObs.saw_dead c -> DeadObs.dropped c /\ DeadObs.dw c = k /\ List.map DeadObs.ival (DeadObs.I c) = List.seq 0 (S k).
Proof. exact DeadObs.dead_only_after_drop. Qed.
Print Assumptions C07_dead_only_after_drop.

Theorem C07_dead_implies_published_visible :
  forall (k : nat) (acq rel xacq zacq zrel : bool) (script : list (DeadObs.tid * nat)), acq = true -> rel = true -> let c := DeadObs.exec k acq rel xacq zacq zrel script in DeadObs.race c = false /\ (DeadObs.saw_dead c -> DeadObs.dw c <= DeadObs.vd (DeadObs.V (DeadObs.Y c)) /\ length (DeadObs.I c) - 1 <= DeadObs.vi (DeadObs.V (DeadObs.Y c))) /\ (DeadObs.idx_read c -> DeadObs.n (DeadObs.Y c) = k /\ DeadObs.n (DeadObs.Y c) = DeadObs.ival (List.last (DeadObs.I c) DeadObs.dI)).
Proof. exact DeadObs.dead_implies_published_visible. Qed.
Print Assumptions C07_dead_implies_published_visible.


(** L-tie: the drop path of the source (translated on every run into gen/LifeFns.v: [Drop for XIter] -> [BufRef::set_X_alive(false)] - fence,
    the variant's liveness setter, fence, release if that call cleared the last flag - -> [BufRef::drop] - free the box iff this handle owns
    one) is the Model's [drop_iter], for the Local and the Concurrent variant and every combination of flags: same flags afterwards, the
    buffer released exactly when the last flag went on a heap (boxed) buffer, nothing touched after the release *)
Require MRB.Proofs.LifeTie.
Theorem C07_drop_path_source :
  LifeFns.life_clean = true /\
  forall (V : bool) (k : Types.stage) (s : Seq.mstate), Seq.freed s = false ->
  LifeTie.l_drop k V (LifeM.mkLE (Seq.heap s)) (LifeM.mkLS (Seq.flag s) (Seq.freed s) []) =
  Some (tt, LifeM.mkLS (Seq.flag (fst (Seq.drop_iter k s))) (Seq.freed (fst (Seq.drop_iter k s)))
                 ([LifeM.EFence; LifeM.ESet k false; LifeM.EFence] ++ (if Seq.freed (fst (Seq.drop_iter k s)) then [LifeM.EFree] else []))).
Proof. split; [exact LifeTie.life_closed | exact LifeTie.tie_drop]. Qed.
Print Assumptions C07_drop_path_source.
