(** * C15: A task awaiting an async operation is woken; satisfiable waits do not hang
    (a) registration holds and is proved; (b) "some later enabling operation invokes that waker" is FALSE of the faithful
    model (and of the code: nothing calls Waker::wake) - known finding F8; it is refuted below. *)
From Coq Require Import List NArith.
Import ListNotations.
Require Import MRB.Model.Types MRB.Model.Seq MRB.Model.Async.
Require Import MRB.Proofs.AsyncFacts.

Theorem C15_registered :
  forall (s : Async.astate) (a : Pipe.pipe) (k : Types.stage) (o : Types.op), Rel.Rel (Async.base s) a -> Pipe.ok_op a o = true -> Async.refused (fst (snd (Seq.step (Async.base s) o))) = true -> exists m2 : Seq.mstate, Async.poll k o s = (Async.register k (Async.set_base m2 s), (Types.OPending, nil)) /\ Rel.Rel m2 a /\ Pipe.sstep a o = (a, (fst (snd (Pipe.sstep a o)), nil)) /\ Types.tget k (Async.wk (fst (Async.poll k o s))) = Some (Async.task s) /\ Async.held (fst (Async.poll k o s)) = Async.held s.
Proof. exact AsyncFacts.poll_pending. Qed.
Print Assumptions C15_registered.

Theorem C15_never_woken :
  forall (h : list Async.aop) (s : Async.astate), Async.wakes (fst (Async.arun s h)) = Async.wakes s.
Proof. exact AsyncFacts.never_woken_run. Qed.
Print Assumptions C15_never_woken.

(** the last poller wins: another task polling the same pending future replaces the registered waker *)
Definition c15_cfg := mkConfig [0;0]%N false true false.
Example C15_last_poller_wins :
  match init c15_cfg with
  | Some m => let s := fst (arun (a_init_state m) [ASetTask 1; AHold Pop; ASetTask 2; ARepoll C]) in
      tget C (wk s) = Some 2 /\ tget C (held s) = Some Pop
  | None => False
  end.
Proof. vm_compute. split; reflexivity. Qed.

(** (b) refuted: a consumer task is Pending on an empty buffer with its waker registered; the producer pushes - the
    awaited operation is now possible (polling again would complete) - yet no wake-up has been made, and by
    [C15_never_woken] none ever will: under an executor that polls only on wake-up the task stays parked for ever. *)
Theorem C15_refuted :
  exists (m : mstate) (h : list aop),
    init c15_cfg = Some m /\
    let s := fst (arun (a_init_state m) h) in
    tget C (held s) = Some Pop /\ tget C (wk s) = Some 1 /\
    fst (snd (astep s (ARepoll C))) = OVal 7%N /\                 (* the wait is satisfiable *)
    wakes s = 0 /\ forall h', wakes (fst (arun s h')) = 0.          (* nobody was or will be woken *)
Proof.
  destruct (init c15_cfg) as [m|] eqn:E; [|vm_compute in E; discriminate].
  exists m, [ASetTask 1; AHold Pop; ASetTask 0; APoll (Push 7%N)].
  vm_compute in E. inversion E; subst m. split; [reflexivity|].
  match goal with |- context[arun ?s0 ?h] => remember (fst (arun s0 h)) as s eqn:Es end.
  vm_compute in Es. cbv zeta. subst s.
  repeat match goal with |- _ /\ _ => split end; try reflexivity.
  intros h'. rewrite AsyncFacts.never_woken_run. reflexivity.
Qed.
Print Assumptions C15_refuted.

(** the source registers the polling task's waker between the two attempts - after a failed first attempt, before the re-check
    (gen/PollGen.v, the symbolic execution of [MRBFuture::poll] regenerated on every run) *)
Theorem C15_registration_before_recheck :
  PollGen.poll_clean = true /\
  PollGen.poll_shape = [([true], [PollShape.PAttempt], PollShape.PReady);
                        ([false; true], [PollShape.PAttempt; PollShape.PRegister; PollShape.PAttempt], PollShape.PReady);
                        ([false; false], [PollShape.PAttempt; PollShape.PRegister; PollShape.PAttempt], PollShape.PPending)].
Proof. split; reflexivity. Qed.
Print Assumptions C15_registration_before_recheck.

(** ** the re-check after registration, on the branch no sequential history reaches: ANOTHER stage acts during [register_waker]
       ([Async.poll_inj]: attempt; registration; one async step [d] of another stage; second attempt - the harness performs [d] inside the
       polling task's [Waker::clone]).  The source's [poll] (gen/PollGen.v) run with the injected step at its [PRegister] event is
       [poll_inj]; and whatever [d] made possible is seen by the second attempt: the poll answers with the operation's result - the
       wake-up that would have announced it cannot be lost, because it is not needed. *)
Require MRB.Proofs.AsyncInj.
Theorem C15_poll_with_injected_step_is_source :
  PollGen.poll_clean = true /\
  forall (k : stage) (o : op) (d : aop) (s : astate), PollShape.poll_inj_by_shape PollGen.poll_shape k o d s = Some (poll_inj k o d s).
Proof. split; [reflexivity | exact AsyncInj.poll_inj_is_source_shape]. Qed.
Print Assumptions C15_poll_with_injected_step_is_source.

Theorem C15_no_lost_wakeup_during_registration :
  forall (s : astate) (k : stage) (o : op) (d : aop),
    refused (fst (snd (Seq.step (base s) o))) = true ->                                   (* the first attempt is refused *)
    let s1 := register k (set_base (fst (Seq.step (base s) o)) s) in                      (* the polling task is registered ... *)
    let si := fst (astep s1 d) in                                                         (* ... the other stage acts ... *)
    tget k (wk s1) = Some (task s) /\
    (refused (fst (snd (Seq.step (base si) o))) = false ->                                (* ... and made the operation possible: *)
     fst (snd (fst (poll_inj k o d s))) = fst (snd (Seq.step (base si) o)) /\             (* the poll answers with its result, *)
     fst (snd (fst (poll_inj k o d s))) <> OPending).                                     (* never Pending *)
Proof.
  intros s k o d H. cbv zeta. split; [exact (AsyncInj.inj_registered_before s k o)|].
  intros H2. destruct (AsyncInj.inj_no_lost_wakeup s k o d H H2) as [E N]. split; [rewrite E; reflexivity | exact N].
Qed.
Print Assumptions C15_no_lost_wakeup_during_registration.

(** the hypotheses are met: a consumer polls [pop] on an empty buffer, the producer pushes 7 while the consumer's waker is being
    registered - the poll answers [7], and the consumer task is the registered one *)
Example C15_injected_push_is_seen :
  exists m : mstate, init c15_cfg = Some m /\
    let s := a_init_state m in
    refused (fst (snd (Seq.step (base s) Pop))) = true /\
    snd (poll_inj C Pop (APoll (Push 7%N)) s) = Some OOk /\
    fst (snd (fst (poll_inj C Pop (APoll (Push 7%N)) s))) = OVal 7%N /\
    tget C (wk (fst (fst (poll_inj C Pop (APoll (Push 7%N)) s)))) = Some 0.
Proof.
  destruct (init c15_cfg) as [m|] eqn:E; [|vm_compute in E; discriminate].
  exists m. vm_compute in E. inversion E; subst m. split; [reflexivity|]. vm_compute. repeat split; reflexivity.
Qed.
