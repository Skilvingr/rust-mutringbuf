(** Non-vacuity: concrete reachable states and a concrete contract-respecting history
    (three stages, len 4, wrap-around, slices across the physical end, reset, detached moves). *)
From Coq Require Import List NArith.
Import ListNotations.
Require Import MRB.Model.Types MRB.Model.Seq MRB.Spec.Pipe.
Require Import MRB.Proofs.Rel MRB.Proofs.Refine MRB.Proofs.SpecFacts.

Definition ex_cfg : config := mkConfig [0; 0; 0; 0]%N true true false.

Definition ex_hist : list op :=
  [Push 11; PushSlice [12; 13]%N; Avail W; Edit W 0 100; Advance W 2; GetExact C 2; Pop; CopySlice 1;
   PushSlice [14; 15]%N; Detach W; Advance W 1; GoBack W 1; SetIndex W 3; Sync W; Attach W;
   Reset W; PeekAvail; Reset C; Avail P; Push 16; DropIter P; DropIter W; DropIter C]%N.

Example ex_init : exists m a, init ex_cfg = Some m /\ a_init ex_cfg = Some a /\ Rel m a /\
  a_usable P a = true /\ a_usable W a = true /\ a_usable C a = true.
Proof.
  pose proof (init_refines ex_cfg) as R.
  destruct (init ex_cfg) as [m|] eqn:Em; [|discriminate].
  destruct (a_init ex_cfg) as [a|] eqn:Ea; [|vm_compute in Ea; discriminate].
  exists m, a. repeat match goal with |- _ /\ _ => split end; auto; vm_compute in Ea; inversion Ea; subst a; reflexivity.
Qed.

(** the example history respects the contract at every step ... *)
Example ex_hist_ok : match a_init ex_cfg with
  | Some a => snd (srun a ex_hist) = true
  | None => False end.
Proof. vm_compute. reflexivity. Qed.

(** ... and the consumer obtained the edited first item, then the second one, in push order *)
Example ex_hist_outputs : match init ex_cfg with
  | Some m => let outs := map fst (snd (run m ex_hist)) in
      nth 6 outs OBad = OVal 111%N /\ nth 7 outs OBad = ODst [12%N] /\ nth 5 outs OBad = OSlices 0 [111; 12]%N []
  | None => False end.
Proof. vm_compute. repeat split. Qed.

(** a full buffer exists: the refusal clauses are not vacuous *)
Example ex_full : match a_init ex_cfg with
  | Some a => let a' := fst (fst (srun a [PushSlice [1; 2; 3]%N])) in
      a_avail P a' = 0 /\ in_flight a' = slen a' - 1 /\ a_attached P a' = true
  | None => False end.
Proof. vm_compute. repeat split. Qed.

(** [C05_available_then_advance] is not vacuous: on the fresh example buffer the producer's [available()] answers 3 (= len - 1), and after
    the two steps [avail P], [adv P =3] the consumer finds exactly those three slots *)
Example ex_avail_then_advance : match init ex_cfg, a_init ex_cfg with
  | Some m, Some a =>
      fst (snd (step m (Avail P))) = ONum 3 /\
      ok_op (fst (sstep a (Avail P))) (Advance P 3) = true /\
      a_avail C (fst (fst (srun a [Avail P; Advance P 3; Avail W; Advance W 3]))) = 3
  | _, _ => False end.
Proof. vm_compute. repeat split. Qed.
