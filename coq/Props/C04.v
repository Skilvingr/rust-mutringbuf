(** * C04: Stage order and capacity
    Only statements closed by [exact]; proofs live in Proofs/. *)
Require Import MRB.Proofs.Refine MRB.Proofs.SpecFacts.

Theorem C04_order :
  forall (m : Seq.mstate) (a : Pipe.pipe), Rel.Rel m a -> Types.tC (Pipe.ppos a) <= Types.tC (Pipe.lpos a) /\ Types.tC (Pipe.lpos a) <= Pipe.a_succ Types.C a /\ Pipe.a_succ Types.C a <= Types.tP (Pipe.ppos a) /\ (Pipe.shasW a = true -> Types.tC (Pipe.lpos a) <= Types.tW (Pipe.ppos a) /\ Types.tW (Pipe.ppos a) <= Types.tW (Pipe.lpos a) <= Types.tP (Pipe.ppos a)) /\ Types.tP (Pipe.ppos a) <= Types.tP (Pipe.lpos a) /\ Types.tP (Pipe.lpos a) < Types.tC (Pipe.ppos a) + Pipe.slen a /\ in_flight a <= Pipe.slen a - 1 /\ (forall k : Types.stage, Types.tget k (Seq.pub m) = PeanoNat.Nat.modulo (Types.tget k (Pipe.ppos a)) (Pipe.slen a)) /\ (forall k : Types.stage, Types.tget k (Pipe.shere a) = true -> Seq.ix (Seq.it_of k m) = PeanoNat.Nat.modulo (Types.tget k (Pipe.lpos a)) (Pipe.slen a)).
Proof. exact SpecFacts.C04_order. Qed.
Print Assumptions C04_order.

Theorem C04_capacity :
  forall (m : Seq.mstate) (a : Pipe.pipe) (v : BinNums.N), Rel.Rel m a -> Pipe.a_attached Types.P a = true -> (fst (snd (Seq.step m (Types.Push v))) = Types.OOk <-> in_flight a < Pipe.slen a - 1) /\ (fst (snd (Seq.step m (Types.Push v))) = Types.OErr v <-> in_flight a = Pipe.slen a - 1).
Proof. exact SpecFacts.C04_capacity. Qed.
Print Assumptions C04_capacity.

Theorem C04_sum :
  forall (m : Seq.mstate) (a : Pipe.pipe), Rel.Rel m a -> Types.tP (Pipe.sdet a) = false -> Types.tW (Pipe.sdet a) = false -> Types.tC (Pipe.sdet a) = false -> Pipe.a_avail Types.P a + (if Pipe.shasW a then Pipe.a_avail Types.W a else 0) + Pipe.a_avail Types.C a = Pipe.slen a - 1.
Proof. exact SpecFacts.C04_sum. Qed.
Print Assumptions C04_sum.

Theorem C04_safe_ops :
  forall (m : Seq.mstate) (a : Pipe.pipe) (o : Types.op), Rel.Rel m a -> safe_op o = true -> refines (Seq.step m o) (Pipe.sstep a o).
Proof. exact SpecFacts.C04_safe_ops. Qed.
Print Assumptions C04_safe_ops.

Theorem C04_preserved :
  forall (m : Seq.mstate) (a : Pipe.pipe) (o : Types.op), Rel.Rel m a -> Pipe.ok_op a o = true -> Rel.Rel (fst (Seq.step m o)) (fst (Pipe.sstep a o)).
Proof. exact SpecFacts.reach_step. Qed.
Print Assumptions C04_preserved.

Theorem C04_initial :
  forall (c : Types.config) (m : Seq.mstate), Seq.init c = Some m -> Reach m.
Proof. exact SpecFacts.reach_init. Qed.
Print Assumptions C04_initial.

(** UNDER CONCURRENCY (release/acquire machines, any interleaving / stale read / window sizes; Conc/RA3nproof.v, Conc/RAxproof.v): at every moment -
    also in mid-operation - consumer <= worker <= producer and the producer is fewer than len slots ahead of the consumer *)
Require MRB.Conc.RA3nproof MRB.Conc.RAxproof.
Theorem C04_order_concurrent :
  forall len script, 0 < len ->
  let c := RA3n.exec3_n len (RA3n.init3_n len) script in
  RA3n.pos3 (RA3n.C3 c) <= RA3n.pos3 (RA3n.W3 c) /\ RA3n.pos3 (RA3n.W3 c) <= RA3n.pos3 (RA3n.P3 c) /\
  RA3n.pos3 (RA3n.P3 c) + 1 <= RA3n.pos3 (RA3n.C3 c) + len /\
  RA3n.pos3 (RA3n.C3 c) + RA3n.off3 (RA3n.C3 c) <= RA3n.pos3 (RA3n.W3 c) /\
  RA3n.pos3 (RA3n.W3 c) + RA3n.off3 (RA3n.W3 c) <= RA3n.pos3 (RA3n.P3 c) /\
  RA3n.pos3 (RA3n.P3 c) + RA3n.off3 (RA3n.P3 c) + 1 <= RA3n.pos3 (RA3n.C3 c) + len.
Proof. exact RA3nproof.order_always_3n. Qed.
Print Assumptions C04_order_concurrent.

Theorem C04_order_concurrent_reset_detached :
  forall len script, 0 < len ->
  let c := RAx.exec_x len (RAx.init_x len) script in
  RAx.pos (RAx.C c) + RAx.off (RAx.C c) <= RAx.pos (RAx.P c) /\
  RAx.pos (RAx.P c) + RAx.off (RAx.P c) + 1 <= RAx.pos (RAx.C c) + len.
Proof. exact RAxproof.order_always_x. Qed.
Print Assumptions C04_order_concurrent_reset_detached.

(** THREE stages with reset_index / detach / sync_index / attach on the WORKER and the consumer, under concurrency (Conc/RA3x.v) *)
Theorem C04_order_concurrent_three_stages_reset_detached :
  forall (len : nat) (script : list (RA3.tid * RA3x.cmd)), 0 < len -> let c := RA3x.exec3_x len (RA3x.init3_x len) script in RA3x.pos3 (RA3x.C3 c) + RA3x.off3 (RA3x.C3 c) <= RA3x.publishedW3 c /\ RA3x.publishedW3 c <= RA3x.pos3 (RA3x.W3 c) /\ RA3x.pos3 (RA3x.W3 c) + RA3x.off3 (RA3x.W3 c) <= RA3x.pos3 (RA3x.P3 c) /\ RA3x.publishedP3 c = RA3x.pos3 (RA3x.P3 c) /\ RA3x.pos3 (RA3x.P3 c) + RA3x.off3 (RA3x.P3 c) + 1 <= RA3x.publishedC3 c + len /\ RA3x.publishedC3 c <= RA3x.pos3 (RA3x.C3 c).
Proof. exact RA3xproof.order_always_3x. Qed.
Print Assumptions C04_order_concurrent_three_stages_reset_detached.

