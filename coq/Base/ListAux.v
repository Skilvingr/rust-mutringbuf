(** * List helpers: point update, contiguous sub-list, contiguous run write. *)
From Coq Require Import List Arith Lia Bool.
Import ListNotations.
Require Import MRB.Base.Ring.

Section L.
Context {A : Type} (d : A).

Fixpoint upd (k : nat) (x : A) (l : list A) : list A :=
  match l, k with
  | [], _ => []
  | _ :: t, 0 => x :: t
  | h :: t, S k' => h :: upd k' x t
  end.

(** [sub l i n]: the [n] elements of [l] starting at [i] (a raw slice). *)
Definition sub (l : list A) (i n : nat) : list A := firstn n (skipn i l).

(** [write l i vs]: store [vs] into consecutive slots starting at [i]. *)
Fixpoint write (l : list A) (i : nat) (vs : list A) : list A :=
  match vs with [] => l | v :: r => write (upd i v l) (S i) r end.

Lemma upd_length k x l : length (upd k x l) = length l.
Proof. revert k; induction l; destruct k; simpl; auto. Qed.
Lemma nth_upd_eq k x l : k < length l -> nth k (upd k x l) d = x.
Proof. revert k; induction l; destruct k; simpl; intros; try lia; auto. apply IHl; lia. Qed.
Lemma nth_upd_neq k j x l : k <> j -> nth j (upd k x l) d = nth j l d.
Proof. revert k j; induction l; destruct k, j; simpl; intros; try lia; auto. Qed.
Lemma nth_upd k j x l : k < length l -> nth j (upd k x l) d = if Nat.eqb k j then x else nth j l d.
Proof.
  intros. destruct (Nat.eqb_spec k j) as [->|]; [apply nth_upd_eq | apply nth_upd_neq]; auto.
Qed.
Lemma upd_out k x l : length l <= k -> upd k x l = l.
Proof. revert k; induction l; destruct k; simpl; intros; try lia; auto. f_equal; apply IHl; lia. Qed.
Lemma upd_app k x l s : k < length l -> upd k x (l ++ s) = upd k x l ++ s.
Proof. revert k; induction l; destruct k; simpl; intros; try lia; auto. f_equal; apply IHl; lia. Qed.

Lemma write_length l i vs : length (write l i vs) = length l.
Proof. revert l i; induction vs; intros; simpl; auto. rewrite IHvs, upd_length; auto. Qed.

Lemma write_app l i vs ws : write l i (vs ++ ws) = write (write l i vs) (i + length vs) ws.
Proof.
  revert l i; induction vs as [|v r IH]; intros l i; simpl; [rewrite Nat.add_0_r; reflexivity|].
  rewrite IH. f_equal. lia.
Qed.

Lemma nth_write l i vs k : i + length vs <= length l ->
  nth k (write l i vs) d = if (i <=? k) && (k <? i + length vs) then nth (k - i) vs d else nth k l d.
Proof.
  revert l i. induction vs as [|v r IH]; intros l i Hlen; simpl in *.
  - destruct (i <=? k) eqn:E1; simpl; auto. destruct (k <? i + 0) eqn:E2; auto.
    apply Nat.leb_le in E1; apply Nat.ltb_lt in E2; lia.
  - rewrite IH by (rewrite upd_length; lia).
    destruct (Nat.eq_dec k i) as [->|Hne].
    + bf (S i <=? i). bt (i <=? i). bt (i <? i + S (length r)). simpl.
      rewrite Nat.sub_diag. apply nth_upd_eq; lia.
    + rewrite nth_upd_neq by auto.
      destruct (Nat.leb_spec i k).
      * bt (S i <=? k).
        replace (k <? i + S (length r)) with (k <? S i + length r) by (f_equal; lia).
        destruct (k <? S i + length r); simpl; auto.
        replace (k - i) with (S (k - S i)) by lia. reflexivity.
      * bf (S i <=? k). reflexivity.
Qed.

Lemma nth_firstn_lt (l : list A) n j : j < n -> nth j (firstn n l) d = nth j l d.
Proof. revert n j; induction l; intros [|n] [|j] H; simpl; auto; try lia. apply IHl; lia. Qed.
Lemma nth_skipn_add (l : list A) i j : nth j (skipn i l) d = nth (i + j) l d.
Proof. revert i; induction l; intros [|i]; simpl; auto. destruct j; auto. Qed.

Lemma nth_sub l i n j : j < n -> nth j (sub l i n) d = nth (i + j) l d.
Proof. intros Hj. unfold sub. rewrite nth_firstn_lt by auto. apply nth_skipn_add. Qed.
Lemma sub_length l i n : i + n <= length l -> length (sub l i n) = n.
Proof. intros. unfold sub. rewrite firstn_length, skipn_length. lia. Qed.

Lemma nth_ext_d (l1 l2 : list A) : length l1 = length l2 ->
  (forall j, j < length l1 -> nth j l1 d = nth j l2 d) -> l1 = l2.
Proof. intros. apply nth_ext with (d := d) (d' := d); auto. Qed.

Lemma skipn_add a b (l : list A) : skipn a (skipn b l) = skipn (b + a) l.
Proof.
  revert l; induction b; intros l; simpl; auto.
  destruct l; simpl; auto. destruct a; reflexivity.
Qed.

Lemma firstn_add n m (l : list A) : firstn (n + m) l = firstn n l ++ firstn m (skipn n l).
Proof.
  revert l; induction n as [|n IH]; intros l; simpl; auto.
  destruct l as [|x l]; simpl; [rewrite firstn_nil; reflexivity | f_equal; apply IH].
Qed.

Lemma sub_app (l : list A) i n1 n2 : sub l i (n1 + n2) = sub l i n1 ++ sub l (i + n1) n2.
Proof. unfold sub. rewrite firstn_add, skipn_add. reflexivity. Qed.

Lemma sub_cons_nth (l : list A) i n : i < length l -> sub l i (S n) = nth i l d :: sub l (S i) n.
Proof.
  revert i; induction l as [|y l IH]; intros i H; simpl in *; [lia|].
  destruct i; simpl; auto. unfold sub in *. simpl. apply IH. lia.
Qed.

Lemma sub_one (l : list A) i : i < length l -> sub l i 1 = [nth i l d].
Proof. intros H. rewrite sub_cons_nth by auto. reflexivity. Qed.

Lemma sub_map_seq (l : list A) n : forall i, i + n <= length l ->
  sub l i n = map (fun p => nth p l d) (seq i n).
Proof.
  induction n as [|n IH]; intros i H; [reflexivity|].
  rewrite sub_cons_nth by lia. cbn [seq map]. f_equal. apply IH. lia.
Qed.

Lemma sub_ext (l l' : list A) i n : i + n <= length l -> i + n <= length l' ->
  (forall q, i <= q < i + n -> nth q l' d = nth q l d) -> sub l' i n = sub l i n.
Proof.
  intros H1 H2 H. apply nth_ext_d.
  - rewrite !sub_length; auto.
  - intros j Hj. rewrite sub_length in Hj by auto. rewrite !nth_sub by auto. apply H. lia.
Qed.

Lemma sub_write_same (l : list A) i vs : i + length vs <= length l ->
  sub (write l i vs) i (length vs) = vs.
Proof.
  intros H. apply nth_ext_d.
  - rewrite sub_length; auto. rewrite write_length; auto.
  - intros j Hj. rewrite sub_length in Hj by (rewrite write_length; auto).
    rewrite nth_sub, nth_write by auto.
    bt (i <=? i + j). bt (i + j <? i + length vs). simpl. f_equal. lia.
Qed.

Lemma sub_upd_after (l : list A) i x j n : i < j -> sub (upd i x l) j n = sub l j n.
Proof.
  intros H. apply nth_ext_d.
  - unfold sub. rewrite !firstn_length, !skipn_length, upd_length. reflexivity.
  - intros k Hk. unfold sub in Hk. rewrite firstn_length in Hk.
    rewrite !nth_sub by lia. apply nth_upd_neq. lia.
Qed.

Lemma sub_write_before (l : list A) i vs n : n <= i -> i + length vs <= length l -> sub (write l i vs) 0 n = sub l 0 n.
Proof.
  intros H Hb. apply nth_ext_d.
  - unfold sub. rewrite !firstn_length, !skipn_length, write_length. reflexivity.
  - intros k Hk. unfold sub in Hk. rewrite firstn_length in Hk.
    rewrite !nth_sub by lia.
    rewrite nth_write by auto. bf (i <=? 0 + k). reflexivity.
Qed.

End L.
