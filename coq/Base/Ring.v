(** * Ring arithmetic: the crate's own formulas (no remainder: add/subtract [len] once)
      and the bridge lemmas to absolute positions ([idx = pos mod len]). *)
From Coq Require Import Arith Lia.

Global Arguments Nat.leb : simpl never.
Global Arguments Nat.modulo : simpl never.

(** [advance_local]: add, wrap once at [len]. *)
Definition wadd (len i n : nat) : nat := if len <=? i + n then i + n - len else i + n.
(** consumer / worker [_available]. *)
Definition dist (len a b : nat) : nat := if a <=? b then b - a else len - a + b.
(** producer [_available] (one slot is kept free). *)
Definition pavail (len p c : nat) : nat := if p <? c then c - p - 1 else len - p + c - 1.
(** [Detached::go_back]: subtract, wrap once below 0. *)
Definition wsub (len i n : nat) : nat := if i <? n then len - (n - i) else i - n.
(** [next_chunk(_mut)]: lengths of the head and tail slices. *)
Definition chunk (len ix n : nat) : nat * nat :=
  if len <=? ix + n then (len - ix, ix + n - len) else (n, 0).

(* [cases]: split on every boolean test in sight and turn the tests into (in)equalities for [lia];
   [bt e] / [bf e]: replace the comparison [e] by [true] / [false], [lia] showing that it holds / fails. *)
Ltac cases := repeat match goal with
  | |- context[if ?b then _ else _] => destruct b eqn:?
  | H: context[if ?b then _ else _] |- _ => destruct b eqn:?
  end; try rewrite ?Nat.leb_le, ?Nat.leb_gt, ?Nat.ltb_lt, ?Nat.ltb_ge in *.

Ltac bt e := replace e with true by (symmetry; first [apply Nat.leb_le | apply Nat.ltb_lt]; lia).
Ltac bf e := replace e with false by (symmetry; first [apply Nat.leb_gt | apply Nat.ltb_ge]; lia).

Lemma wadd_lt len i n : i < len -> n <= len -> wadd len i n < len.
Proof. unfold wadd; intros; cases; lia. Qed.

Lemma wsub_lt len i n : i < len -> 0 < len -> wsub len i n < len.
Proof. unfold wsub; intros; cases; lia. Qed.

Lemma dist_wadd len i j n : i < len -> j < len -> n <= dist len i j ->
  dist len (wadd len i n) j = dist len i j - n.
Proof.
  unfold dist, wadd; intros; cases; lia.
Qed.

Lemma pavail_dist len p c : p < len -> c < len -> pavail len p c + dist len c p = len - 1.
Proof. unfold pavail, dist; intros. destruct (Nat.ltb_spec p c), (Nat.leb_spec c p); lia. Qed.

Lemma chunk_sum len ix n : ix < len -> fst (chunk len ix n) + snd (chunk len ix n) = n.
Proof. unfold chunk; intros; cases; simpl; lia. Qed.

Lemma chunk_bounds len ix n : ix < len -> n <= len ->
  ix + fst (chunk len ix n) <= len /\ snd (chunk len ix n) <= ix.
Proof. unfold chunk; intros; cases; simpl; lia. Qed.

Lemma wadd_mod len a n : 0 < len -> n <= len -> wadd len (a mod len) n = (a + n) mod len.
Proof.
  intros Hl Hn. unfold wadd.
  pose proof (Nat.mod_upper_bound a len ltac:(lia)) as Hb.
  pose proof (Nat.div_mod a len ltac:(lia)) as Hd.
  set (r := a mod len) in *. set (q := a / len) in *.
  destruct (len <=? r + n) eqn:E; [apply Nat.leb_le in E | apply Nat.leb_gt in E].
  - apply Nat.mod_unique with (q := q + 1); nia.
  - apply Nat.mod_unique with (q := q); nia.
Qed.

Lemma dist_mod len a b : 0 < len -> a <= b -> b - a < len -> dist len (a mod len) (b mod len) = b - a.
Proof.
  intros Hl Hab Hd.
  replace b with (a + (b - a)) at 1 by lia.
  rewrite <- wadd_mod by lia.
  pose proof (Nat.mod_upper_bound a len ltac:(lia)).
  unfold dist, wadd; cases; lia.
Qed.

Lemma pavail_mod len p c : 0 < len -> c <= p -> p - c < len ->
  pavail len (p mod len) (c mod len) = len - 1 - (p - c).
Proof.
  intros Hl Hcp Hd.
  pose proof (pavail_dist len (p mod len) (c mod len)) as H.
  rewrite dist_mod in H by auto. rewrite <- H by (apply Nat.mod_upper_bound; lia). lia.
Qed.

Lemma wsub_mod len a n : 0 < len -> n <= a -> n <= len -> wsub len (a mod len) n = (a - n) mod len.
Proof.
  intros Hl Hn Hnl.
  pose proof (wadd_mod len (a - n) n Hl Hnl) as H.
  replace (a - n + n) with a in H by lia.
  pose proof (Nat.mod_upper_bound (a - n) len ltac:(lia)) as Hb.
  rewrite <- H. unfold wsub, wadd. set (r := (a - n) mod len) in *. cases; lia.
Qed.

(** congruent and closer than [len] => not above *)
Lemma congr_le len a b : 0 < len -> a mod len = b mod len -> a < b + len -> a <= b.
Proof.
  intros Hl Hm Hlt.
  pose proof (Nat.div_mod a len ltac:(lia)) as Ha.
  pose proof (Nat.div_mod b len ltac:(lia)) as Hb.
  pose proof (Nat.mod_upper_bound a len ltac:(lia)).
  rewrite Hm in Ha.
  assert (a / len <= b / len) by nia. nia.
Qed.

Lemma congr_eq len a b : 0 < len -> a mod len = b mod len -> a < b + len -> b < a + len -> a = b.
Proof. intros. assert (a <= b) by (eapply congr_le; eauto). assert (b <= a) by (eapply congr_le; eauto). lia. Qed.

Lemma mod_add_len len a : 0 < len -> (a + len) mod len = a mod len.
Proof.
  intros. replace (a + len) with (a + 1 * len) by lia. apply Nat.mod_add. lia.
Qed.

(** position of [b + j] in terms of the ring index of [b] *)
Lemma pos_split len b j : 0 < len -> j <= len ->
  (b + j) mod len = if len <=? b mod len + j then b mod len + j - len else b mod len + j.
Proof. intros. rewrite <- wadd_mod by auto. reflexivity. Qed.

Lemma mod_plus_small len p j : p mod len + j < len -> (p + j) mod len = p mod len + j.
Proof. intros H. rewrite pos_split by lia. bf (len <=? p mod len + j). reflexivity. Qed.

Lemma mod_to_end len p : 0 < len -> (p + (len - p mod len)) mod len = 0.
Proof.
  intros Hl. pose proof (Nat.mod_upper_bound p len ltac:(lia)).
  rewrite pos_split by lia. bt (len <=? p mod len + (len - p mod len)). lia.
Qed.

Lemma dist_lt len r j : r < len -> j < len -> dist len r j < len.
Proof. unfold dist; intros; cases; lia. Qed.

Lemma locate_mod len b j : 0 < len -> j < len -> (b + dist len (b mod len) j) mod len = j.
Proof.
  intros Hl Hj. pose proof (Nat.mod_upper_bound b len ltac:(lia)) as Hb.
  pose proof (dist_lt len (b mod len) j Hb Hj) as Hd.
  rewrite pos_split by lia. unfold dist in *. destruct (Nat.leb_spec (b mod len) j).
  - bf (len <=? b mod len + (j - b mod len)). lia.
  - bt (len <=? b mod len + (len - b mod len + j)). lia.
Qed.
