(** * L-tie: the drop path TRANSLATED FROM THE RUST SOURCE on every run (gen/LifeFns.v: [Drop for ProdIter / WorkIter / ConsIter] ->
      [BufRef::set_X_alive(false)] -> the variant's liveness setter -> [BufRef::drop]) is the Model's [drop_iter], for both variants:
      same flags, the buffer released exactly when the last flag went and the handle owns the box; the trace is
      fence, the one flag update, fence, then the release - nothing is touched after the release. *)
From Coq Require Import List Bool.
Import ListNotations.
Require Import MRB.Model.Types MRB.Model.Seq MRB.Model.LifeM MRB.gen.LifeFns.

Definition l_drop (k : stage) := match k with P => l_drop_prod | W => l_drop_work | C => l_drop_cons end.

(** the run on arbitrary flags and an unreleased buffer, for the variant [V] of the translated setters ([true]: the Concurrent
    buffer, one read-modify-write of the flag word; [false]: the Local one).  Every flag is a constructor before anything is unfolded, so each of the
    (variant, iterator, flags, boxed) cases is a closed computation. *)
Lemma drop_run (V : bool) (k : stage) (fl : tri bool) (hp : bool) :
  let fl' := tset k false fl in
  let rel := negb (tP fl') && negb (tW fl') && negb (tC fl') && hp in
  l_drop k V (mkLE hp) (mkLS fl false []) =
  Some (tt, mkLS fl' rel ([EFence; ESet k false; EFence] ++ (if rel then [EFree] else []))).
Proof. destruct fl as [[] [] []], V, k, hp; reflexivity. Qed.

Theorem tie_drop (V : bool) (k : stage) (s : mstate) : freed s = false ->
  let s' := fst (drop_iter k s) in
  l_drop k V (mkLE (heap s)) (mkLS (flag s) (freed s) []) =
  Some (tt, mkLS (flag s') (freed s')
                 ([EFence; ESet k false; EFence] ++ (if freed s' then [EFree] else []))).
Proof. intros Hf. unfold drop_iter. cbn [fst flag freed]. rewrite Hf. apply drop_run. Qed.

(** what the Model's ledger says is released is released by this path: the release happens only in the call that cleared the last flag *)
Corollary drop_releases_last_only V k s : freed s = false ->
  forall st, l_drop k V (mkLE (heap s)) (mkLS (flag s) (freed s) []) = Some (tt, st) ->
  (l_freed st = true <-> (heap s = true /\ tget P (tset k false (flag s)) = false /\ tget W (tset k false (flag s)) = false /\ tget C (tset k false (flag s)) = false)).
Proof.
  intros Hf st H. rewrite Hf, drop_run in H. inversion H; subst st. cbn [l_freed tget].
  rewrite !andb_true_iff, !negb_true_iff. tauto.
Qed.

Theorem life_closed : LifeFns.life_clean = true.
Proof. reflexivity. Qed.
