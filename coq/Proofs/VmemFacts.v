(** * C17: facts about the double mapping *)
From Coq Require Import List Arith Lia.
Import ListNotations.
Require Import MRB.Base.Ring MRB.Model.Vmem.

Lemma mirrored_inv s : mirrored s = true ->
  exists ob, lo s = Shared ob 0 /\ hi s = Shared ob 0 /\ obj_has_data s = true.
Proof.
  unfold mirrored. destruct (lo s) as [| |ob [|]]; try discriminate. destruct (hi s) as [| |ob' [|]]; try discriminate.
  intros H. apply andb_prop in H as [E D]. apply Nat.eqb_eq in E as <-. eauto.
Qed.

(** whatever the call sequence: if the final state is [mirrored], every offset resolves, in both halves, to the same byte
    of the same object - a write through one view is read through the other - and the object holds the supplied data *)
Theorem mirrored_aliases size s : mirrored s = true ->
  forall o, o < size -> resolve size s Lo o = resolve size s Hi o /\ exists ob, resolve size s Lo o = Some (ob, o) /\ obj_has_data s = true.
Proof.
  intros M o _. destruct (mirrored_inv s M) as (ob & L & H & D). unfold resolve.
  generalize 1000. (* the unary numeral is not carried through the rewriting *)
  rewrite L, H. eauto.
Qed.

(** what the extractor must find in the source; and a sequence without the shared object, the copy reversed *)
Definition good_calls : list vcall := [VShmCreate; VReserve 2; VMapShared Lo true 0; VMapShared Hi true 0; VClose; VCopyIn true].
Definition pinned_calls : list vcall := [VReserve 2; VMapAnon Hi true; VCopyOut].
Example good_calls_mirrored : mirrored (vexec_calls good_calls) = true.
Proof. reflexivity. Qed.
Theorem pinned_calls_refuted : mirrored (vexec_calls pinned_calls) = false /\ data_intact (vexec_calls pinned_calls) = false.
Proof. split; reflexivity. Qed.

Lemma div_ceil_eq a b : 0 < b -> div_ceil a b = (a + b - 1) / b.
Proof.
  intros Hb. unfold div_ceil.
  pose proof (Nat.div_mod a b ltac:(lia)) as D. pose proof (Nat.mod_upper_bound a b ltac:(lia)) as U.
  set (q := a / b) in *. set (r := a mod b) in *.
  destruct (r =? 0) eqn:E; [apply Nat.eqb_eq in E | apply Nat.eqb_neq in E].
  - rewrite Nat.add_0_r. apply (Nat.div_unique _ b q (b - 1)); lia.
  - apply (Nat.div_unique _ b (q + 1) (r - 1)); lia.
Qed.

(** page rounding: the least multiple of the page size that is >= the request *)
Theorem page_mul_spec page m : 0 < page ->
  m <= page_mul page m /\ page_mul page m mod page = 0 /\ page_mul page m < m + page /\
  forall k, m <= k * page -> page_mul page m <= k * page.
Proof.
  intros Hp. unfold page_mul.
  pose proof (Nat.div_mod (m + page - 1) page ltac:(lia)) as D.
  pose proof (Nat.mod_upper_bound (m + page - 1) page ltac:(lia)) as U.
  set (q := (m + page - 1) / page) in *. set (r := (m + page - 1) mod page) in *.
  repeat split.
  - lia.
  - apply Nat.mod_mul. lia.
  - lia.
  - intros k Hk. destruct (Nat.le_gt_cases q k) as [L|G]; [apply Nat.mul_le_mono_r, L|].
    (* [k < q] gives [(k + 1) * page <= q * page <= m + page - 1] *)
    pose proof (Nat.mul_le_mono_r _ _ page G) as M. cbn [Nat.mul] in M. lia.
Qed.

(** a contiguous window of [n <= len - 1] slots starting at ring index [ix] lies inside the two views and element [j]
    is ring position [(ix + j) mod len]: the single slice handed out under vmem addresses exactly the slots the
    two-slice form addresses *)
Theorem window_in_mirror len ix n j : 0 < len -> ix < len -> n <= len - 1 -> j < n ->
  ix + j < 2 * len /\ (ix + j) mod len = wadd len ix j /\ (if ix + j <? len then ix + j else ix + j - len) = wadd len ix j.
Proof.
  intros Hl Hi Hn Hj. unfold wadd. repeat split; try lia.
  - destruct (len <=? ix + j) eqn:E; [apply Nat.leb_le in E | apply Nat.leb_gt in E].
    + transitivity ((ix + j - len + 1 * len) mod len); [f_equal; lia|]. rewrite Nat.mod_add by lia. apply Nat.mod_small. lia.
    + apply Nat.mod_small. lia.
  - destruct (len <=? ix + j) eqn:E; [apply Nat.leb_le in E | apply Nat.leb_gt in E].
    + replace (ix + j <? len) with false by (symmetry; apply Nat.ltb_ge; lia). reflexivity.
    + replace (ix + j <? len) with true by (symmetry; apply Nat.ltb_lt; lia). reflexivity.
Qed.
