(** * Consequences of the refinement: the sequential property statements (C01, C04, C05, C06, C11, C12, C18). *)
From Coq Require Import List Arith NArith Lia.
Import ListNotations.
Require Import MRB.Base.Ring MRB.Base.ListAux MRB.Model.Types MRB.Model.Seq MRB.Spec.Pipe.
Require Import MRB.Proofs.Rel MRB.Proofs.TapeFacts MRB.Proofs.Refine.

(** Reachable: related to some Spec state; every state reached by a contract-respecting history is. *)
Definition Reach (m : mstate) : Prop := exists a, Rel m a.

Theorem reach_init c m : init c = Some m -> Reach m.
Proof.
  intros H. pose proof (init_refines c) as R. rewrite H in R.
  destruct (a_init c) as [a|]; [exists a; auto | contradiction].
Qed.

Theorem reach_step m a o : Rel m a -> ok_op a o = true -> Rel (fst (step m o)) (fst (sstep a o)).
Proof. intros R OK. apply (step_refines m a o R OK). Qed.

(** in-flight items: between the consumer's published position and the producer's local one *)
Definition in_flight (a : pipe) : nat := tP (lpos a) - tC (ppos a).

Theorem C04_order m a : Rel m a ->
  tC (ppos a) <= tC (lpos a) /\ tC (lpos a) <= a_succ C a /\ a_succ C a <= tP (ppos a) /\
  (shasW a = true -> tC (lpos a) <= tW (ppos a) /\ tW (ppos a) <= tW (lpos a) /\ tW (lpos a) <= tP (ppos a)) /\
  tP (ppos a) <= tP (lpos a) /\ tP (lpos a) < tC (ppos a) + slen a /\
  in_flight a <= slen a - 1 /\
  (forall k, tget k (pub m) = tget k (ppos a) mod slen a) /\
  (forall k, tget k (shere a) = true -> ix (it_of k m) = tget k (lpos a) mod slen a).
Proof.
  intros R. pose proof (r_oC _ _ R). pose proof (r_oP _ _ R). pose proof (r_oS _ _ R). pose proof (r_oW _ _ R).
  pose proof (r_pos _ _ R). unfold in_flight.
  repeat match goal with |- _ /\ _ => split end; try lia.
  - intros E. specialize (H2 E). unfold a_succ in *. rewrite E in *. lia.
  - apply (r_pub _ _ R).
  - intros k Hk. destruct (r_it _ _ R k Hk) as (_ & E & _). exact E.
Qed.

(** a push is accepted iff fewer than len-1 items are in flight *)
Theorem C04_capacity m a v : Rel m a -> a_attached P a = true ->
  (fst (snd (step m (Push v))) = OOk <-> in_flight a < slen a - 1) /\
  (fst (snd (step m (Push v))) = OErr v <-> in_flight a = slen a - 1).
Proof.
  intros R G. pose proof (step_refines m a (Push v) R eq_refl) as [E _].
  rewrite E. cbn [sstep]. rewrite G. unfold a_push.
  assert (A : a_avail P a + in_flight a = slen a - 1).
  { destruct (stage_limit m a P R) as [L O]. destruct (stage_window m a P R eq_refl) as [Wlo _].
    unfold in_flight, a_limit, a_succ in *. simpl in *. lia. }
  destruct (1 <=? a_avail P a) eqn:L; [apply Nat.leb_le in L | apply Nat.leb_gt in L]; simpl;
    split; split; intros; try discriminate; try reflexivity; lia.
Qed.

(** with nothing detached, the availabilities of all stages sum to len-1 *)
Theorem C04_sum m a : Rel m a ->
  tP (sdet a) = false -> tW (sdet a) = false -> tC (sdet a) = false ->
  a_avail P a + (if shasW a then a_avail W a else 0) + a_avail C a = slen a - 1.
Proof.
  intros R DP DW DC.
  (* each stage sits on its published position, and local + availability = limit = the next one's published position *)
  destruct (stage_limit m a P R) as [LP _]. destruct (stage_limit m a W R) as [LW _].
  destruct (stage_limit m a C R) as [LC _]. pose proof (r_pos _ _ R).
  rewrite (r_att _ _ R P DP) in LP. rewrite (r_att _ _ R W DW) in LW. rewrite (r_att _ _ R C DC) in LC.
  unfold a_limit, a_succ in *. simpl in *. destruct (shasW a); lia.
Qed.

(** safe operations: the contract holds for them whatever the arguments and whatever the state *)
Definition safe_op (o : op) : bool :=
  match o with
  | Advance _ _ | Poke _ _ _ | PokeInit _ _ _ | Edit _ _ _ | SetIndex _ _ | GoBack _ _ => false  (* unsafe fns / raw accesses *)
  | DReset P => false         (* known finding F9: a safe fn without a meaning for a producer *)
  | _ => true
  end.

Lemma dreset_ok m a k : Rel m a -> a_detached k a = true -> k <> P ->
  a_locate k (a_succ k a mod slen a) a <= a_limit k a.
Proof.
  intros R G NP. pose proof (detached_usable _ _ G) as U.
  pose proof (succ_limit k a NP) as E.
  destruct (stage_limit m a k R) as [_ O]. destruct (stage_window m a k R (usable_on _ _ U)).
  pose proof (r_pos _ _ R). unfold a_locate. rewrite E, dist_mod by lia. lia.
Qed.

Theorem C04_safe_ops m a o : Rel m a -> safe_op o = true ->
  refines (step m o) (sstep a o).
Proof.
  intros R S. destruct o; try discriminate; try (apply step_refines; auto; fail).
  (* DReset W / C *)
  assert (NP : k <> P) by (intros ->; discriminate).
  destruct (a_detached k a) eqn:G.
  - apply step_refines; auto. apply Nat.leb_le, (dreset_ok m a k R G NP).
  - cbn [step sstep]. rewrite (detached_eq _ _ _ R), G. apply refines_bad; auto.
Qed.

(** a fresh [available()] never over-reports: it returns the true availability *)
Theorem C05_exact m a k : Rel m a -> a_usable k a = true ->
  fst (snd (step m (Avail k))) = ONum (a_avail k a).
Proof.
  intros R U. pose proof (step_refines m a (Avail k) R eq_refl) as [E _]. rewrite E. cbn [sstep]. rewrite U. reflexivity.
Qed.

(** a request for [n] slots succeeds exactly when [n <= availability], whatever was remembered *)
Theorem C05_iff m a k n : Rel m a -> a_usable k a = true ->
  (fst (snd (step m (GetExact k n))) = ONone <-> a_avail k a < n).
Proof.
  intros R U. pose proof (step_refines m a (GetExact k n) R eq_refl) as [E _]. rewrite E. cbn [sstep]. rewrite U.
  unfold a_grant, a_window. destruct (n <=? a_avail k a) eqn:L; [apply Nat.leb_le in L | apply Nat.leb_gt in L]; simpl.
  - destruct (chunk _ _ _). split; [discriminate | lia].
  - split; auto.
Qed.

(** a refused request changes nothing but the requester's remembered availability *)
Theorem C05_refused_noop m a k n : Rel m a -> a_usable k a = true -> a_avail k a < n ->
  step m (GetExact k n) = (set_ca k (a_avail k a) m, (ONone, [])) /\ sstep a (GetExact k n) = (a, (ONone, [])).
Proof.
  intros R U L. cbn [step sstep]. rewrite (usable_eq _ _ _ R), U. apply guarded_refusal; auto.
Qed.

Theorem C05_refused_push m a v : Rel m a -> a_attached P a = true -> a_avail P a = 0 ->
  step m (Push v) = (set_ca P 0 m, (OErr v, [])) /\ sstep a (Push v) = (a, (OErr v, [])).
Proof.
  intros R G L. cbn [step sstep]. rewrite (attached_eq _ _ _ R), G, <- L.
  apply guarded_refusal; auto using attached_usable. lia.
Qed.

Theorem C06_chunk len ix n : ix < len -> n <= len - 1 ->
  let '(h, t) := chunk len ix n in
  h + t = n /\ ix + h <= len /\ t <= ix /\ (t > 0 -> ix + h = len) /\
  (forall k, k < n -> wadd len ix k = if k <? h then ix + k else k - h).
Proof.
  intros Hi Hn. unfold chunk. destruct (len <=? ix + n) eqn:E; [apply Nat.leb_le in E | apply Nat.leb_gt in E].
  - repeat match goal with |- _ /\ _ => split end; try lia.
    intros k Hk. unfold wadd. destruct (k <? len - ix) eqn:E2; [apply Nat.ltb_lt in E2 | apply Nat.ltb_ge in E2].
    + bf (len <=? ix + k). reflexivity.
    + bt (len <=? ix + k). lia.
  - repeat match goal with |- _ /\ _ => split end; try lia.
    intros k Hk. unfold wadd. bt (k <? n). bf (len <=? ix + k). reflexivity.
Qed.

(** the slices handed out are the window of the tape, i.e. element [j] is ring position [(index+j) mod len] *)
Theorem C06_window m a k n : Rel m a -> a_usable k a = true -> n <= a_avail k a ->
  exists h t, fst (snd (step m (GetExact k n))) = OSlices (ix (it_of k m)) h t /\
    h ++ t = sub (tape a) (tget k (lpos a)) n /\
    length h = fst (chunk (slen a) (ix (it_of k m)) n) /\
    forall j, j < n -> nth j (h ++ t) 0%N = slot m (wadd (slen a) (ix (it_of k m)) j).
Proof.
  intros R U L. pose proof (step_refines m a (GetExact k n) R eq_refl) as [E _]. rewrite E. cbn [sstep]. rewrite U.
  unfold a_grant. bt (n <=? a_avail k a). unfold a_window. simpl.
  pose proof (window_bounds m a k R U) as [Wlo Whi]. pose proof (r_pos _ _ R) as Hl. pose proof (r_tape _ _ R) as Ht.
  rewrite (ix_eq m a k R U).
  destruct (chunk (slen a) (tget k (lpos a) mod slen a) n) as [h t] eqn:Ec. simpl.
  exists (firstn h (sub (tape a) (tget k (lpos a)) n)), (skipn h (sub (tape a) (tget k (lpos a)) n)).
  repeat match goal with |- _ /\ _ => split end; auto.
  - apply firstn_skipn.
  - rewrite firstn_length, sub_length by lia.
    assert (Hm : tget k (lpos a) mod slen a < slen a) by (apply Nat.mod_upper_bound; lia).
    pose proof (chunk_sum (slen a) (tget k (lpos a) mod slen a) n Hm) as Hc. rewrite Ec in Hc. simpl in Hc. lia.
  - intros j Hj. rewrite firstn_skipn. rewrite (nth_sub 0%N) by auto.
    rewrite wadd_mod by lia. rewrite slot_eq by (auto; lia). reflexivity.
Qed.

Theorem C11_reset m a k : Rel m a -> a_attached k a = true -> k <> P ->
  let a' := fst (sstep a (Reset k)) in
  let m' := fst (step m (Reset k)) in
  Rel m' a' /\
  (* nothing available, and nothing remembered *)
  a_avail k a' = 0 /\ ca (it_of k m') = 0 /\
  (* every getter of that iterator is refused until the iterator ahead publishes *)
  (forall n, 0 < n -> fst (snd (step m' (GetExact k n))) = ONone) /\
  (* the iterator sits exactly on the position of the iterator ahead *)
  tget k (lpos a') = a_succ k a /\ tget k (ppos a') = a_succ k a /\
  (* everything skipped is released to the iterator behind *)
  (forall j, j <> k -> tget j (lpos a') = tget j (lpos a) /\ a_succ j a' >= a_succ j a).
Proof.
  intros R G NP. pose proof (attached_usable _ _ G) as U.
  pose proof (succ_limit k a NP) as E.
  assert (S : step m (Reset k) = ret (set_pub k (succ_idx k m) (set_ix_ca k (succ_idx k m) 0 m)) OUnit /\
              sstep a (Reset k) = a_ret (a_publish k (a_succ k a) (a_set_lpos k (a_succ k a) a)) OUnit).
  { destruct k; try congruence; cbn [step sstep]; rewrite (attached_eq _ _ _ R), G; auto. }
  destruct S as [-> ->]. cbv zeta. cbn [fst ret a_ret].
  pose proof (rel_reset m a k R U NP) as R'. destruct (stage_limit m a k R) as [_ O].
  assert (A0 : a_avail k (a_publish k (a_succ k a) (a_set_lpos k (a_succ k a) a)) = 0).
  { rewrite avail_limit, limit_publish_self. simpl. rewrite tget_tset_same.
    change (a_limit k (a_set_lpos k (a_succ k a) a)) with (a_limit k a). rewrite E. apply Nat.sub_diag. }
  repeat match goal with |- _ /\ _ => split end; auto.
  - unfold it_of. simpl. rewrite tget_tset_same. reflexivity.
  - intros n Hn. apply (C05_iff _ _ k n R' U). rewrite A0. exact Hn.
  - simpl. apply tget_tset_same.
  - simpl. apply tget_tset_same.
  - intros j Hj. split; [simpl; apply tget_tset_other; auto|].
    apply (succ_publish j k (a_succ k a) (a_set_lpos k (a_succ k a) a)). simpl. lia.
Qed.

(** what the other iterators observe: published positions and liveness *)
Definition observed (a : pipe) := (ppos a, sflag a, slen a, shasW a).

Definition detached_op (k : stage) (o : op) : bool :=
  match o with
  | Avail j | Advance j _ | GetOne j | GetExact j _ | GetAvail j | GetMult j _
  | SetIndex j _ | GoBack j _ | DReset j => stage_eqb j k
  | _ => false
  end.

(** the conclusion of [C12_local] at [a' := a], in the shape [apply] finds under the [let] *)
Lemma local_same k a :
  observed a = observed a /\ tape a = tape a /\
  (forall j, j <> k -> tget j (lpos a) = tget j (lpos a) /\ a_avail j a = a_avail j a).
Proof. auto. Qed.

Lemma local_lpos k p a (a' := a_set_lpos k p a) :
  observed a' = observed a /\ tape a' = tape a /\
  (forall j, j <> k -> tget j (lpos a') = tget j (lpos a) /\ a_avail j a' = a_avail j a).
Proof.
  repeat split; auto.
  - apply tget_tset_other; auto.
  - rewrite !avail_limit. unfold a'. simpl. rewrite tget_tset_other by auto. reflexivity.
Qed.

(** the getters and local moves of a detached iterator change nothing the others observe (published positions,
    flags, contents), nor any other iterator's availability *)
Theorem C12_local a k o : a_detached k a = true -> detached_op k o = true ->
  let a' := fst (sstep a o) in
  observed a' = observed a /\ tape a' = tape a /\
  (forall j, j <> k -> tget j (lpos a') = tget j (lpos a) /\ a_avail j a' = a_avail j a).
Proof.
  intros G D. pose proof (detached_usable _ _ G) as U. pose proof (detached_det _ _ G) as Dt.
  assert (K : forall j, stage_eqb j k = true -> j = k) by (intros j; destruct (stage_eqb_spec j k); auto; discriminate).
  destruct o; try discriminate; simpl in D; apply K in D; subst; cbn [sstep]; rewrite ?U, ?G; cbv zeta.
  - apply local_same.
  - unfold a_advance. rewrite Dt. apply local_lpos.
  - rewrite grant_one_state. apply local_same.
  - rewrite grant_state. apply local_same.
  - destruct (a_avail k a); apply local_same.
  - destruct r; [|destruct (a_avail k a - a_avail k a mod S r)]; apply local_same.
  - apply local_lpos.
  - apply local_lpos.
  - apply local_lpos.
Qed.

Lemma ix_set k i c m : ix (it_of k (set_ix_ca k i c m)) = i.
Proof. unfold set_ix_ca, it_of, set_it. simpl. rewrite tget_tset_same. reflexivity. Qed.

Lemma ix_after_move m' a k p : Rel m' (a_set_lpos k p a) -> a_usable k a = true -> ix (it_of k m') = p mod slen a.
Proof. intros R' U. rewrite (ix_eq m' _ k R' U). simpl. rewrite tget_tset_same. reflexivity. Qed.

(** local moves land on exactly the requested ring position *)
Theorem C12_position m a k : Rel m a -> a_detached k a = true ->
  (forall i, ok_op a (SetIndex k i) = true -> ix (it_of k (fst (step m (SetIndex k i)))) = i) /\
  (forall n, ok_op a (GoBack k n) = true ->
     ix (it_of k (fst (step m (GoBack k n)))) = (tget k (lpos a) - n) mod slen a /\
     ix (it_of k (fst (step m (GoBack k n)))) = wsub (slen a) (ix (it_of k m)) n) /\
  (forall n, ok_op a (Advance k n) = true ->
     ix (it_of k (fst (step m (Advance k n)))) = (tget k (lpos a) + n) mod slen a) /\
  (ix (it_of k (fst (step m (DReset k)))) = succ_idx k m).
Proof.
  intros R G. pose proof (detached_usable _ _ G) as U. pose proof (detached_det _ _ G) as Dt.
  repeat match goal with |- _ /\ _ => split end.
  - (* SetIndex *) intros i _. cbn [step]. rewrite (detached_eq _ _ _ R), G. apply ix_set.
  - (* GoBack *) intros n OK. pose proof (step_refines m a (GoBack k n) R OK) as [_ R'].
    cbn [step sstep] in *. rewrite (detached_eq _ _ _ R), G in *. simpl fst in *.
    split; [apply (ix_after_move _ a k _ R' U) | rewrite ix_set, (r_len _ _ R); reflexivity].
  - (* Advance *) intros n OK. pose proof (step_refines m a (Advance k n) R OK) as [_ R'].
    cbn [step sstep] in *. rewrite (usable_eq _ _ _ R), U in *. simpl fst in *.
    unfold a_advance in R'. rewrite Dt in R'. apply (ix_after_move _ a k _ R' U).
  - (* DReset *) cbn [step]. rewrite (detached_eq _ _ _ R), G. apply ix_set.
Qed.

(** after any operation, a local move in particular, getters grant at most the true distance to the iterator ahead *)
Theorem C12_bounded_after_jump m a o n k : Rel m a -> ok_op a o = true ->
  let m' := fst (step m o) in let a' := fst (sstep a o) in
  a_usable k a' = true ->
  (fst (snd (step m' (GetExact k n))) = ONone <-> a_avail k a' < n) /\
  fst (snd (step m' (Avail k))) = ONum (a_avail k a').
Proof.
  intros R OK m' a' U. pose proof (step_refines m a o R OK) as [_ R'].
  split; [apply (C05_iff m' a' k n R' U) | apply (C05_exact m' a' k R' U)].
Qed.

(** [sync_index] / [attach] publish the local position in one step *)
Theorem C12_sync m a k : Rel m a -> a_detached k a = true ->
  tget k (pub (fst (step m (Sync k)))) = ix (it_of k m) /\
  tget k (pub (fst (step m (Attach k)))) = ix (it_of k m) /\
  tget k (ppos (fst (sstep a (Sync k)))) = tget k (lpos a).
Proof.
  intros R G. cbn [step sstep]. rewrite (detached_eq _ _ _ R), G. simpl.
  unfold set_pub, set_det, set_it, it_of, a_publish. simpl. rewrite !tget_tset_same. auto.
Qed.

Theorem C18_construct c :
  (length (c_init c) = 0 <-> init c = None) /\
  forall m, init c = Some m ->
    exists a, a_init c = Some a /\ Rel m a /\
      mlen m = length (c_init c) /\ slots m = c_init c /\
      a_avail P a = mlen m - 1 /\ a_avail C a = 0 /\ (shasW a = true -> a_avail W a = 0).
Proof.
  split.
  - unfold init. destruct (length (c_init c)); split; intros; try discriminate; auto.
  - intros m Hm. pose proof (init_refines c) as R. rewrite Hm in R.
    destruct (a_init c) as [a|] eqn:Ea; [|contradiction]. exists a. split; auto. split; auto.
    unfold init, a_init in *. destruct (length (c_init c)) eqn:E; try discriminate.
    inversion Hm; subst; clear Hm. inversion Ea; subst; clear Ea.
    unfold a_avail, a_succ. simpl. repeat split; auto; try lia. destruct (c_worker c); lia.
Qed.

Theorem C18_split m a w : Rel m a ->
  let m' := do_split w m in let a' := a_split w a in
  Rel m' a' /\ a_avail P a' = slen a - 1 /\ a_avail C a' = 0 /\ (w = true -> a_avail W a' = 0) /\
  slots m' = slots m.
Proof.
  intros R. pose proof (rel_split m a w R) as R'. cbv zeta. split; auto.
  unfold a_split, a_avail, a_succ. simpl. repeat split; auto; try lia. destruct w; lia.
Qed.

(** the stage that performs an operation *)
Definition actor (o : op) : option stage :=
  match o with
  | Avail k | Advance k _ | GetOne k | GetExact k _ | GetAvail k | GetMult k _
  | Poke k _ _ | PokeInit k _ _ | Edit k _ _ | Reset k | Detach k | Attach k | Sync k
  | SetIndex k _ | GoBack k _ | DReset k | DropIter k => Some k
  | Push _ | PushInit _ | PushSlice _ | PushSliceInit _ | PushSliceClone _ | PushSliceCloneInit _ | NextItemInit => Some P
  | PeekAvail | Pop | PopMove | CopyItem | CloneItem | CopySlice _ | CloneSlice _ => Some C
  | DropBuf | Resplit _ => None
  end.

(** the windows of the three stages are disjoint intervals of positions, in pipeline order *)
Theorem C01_windows_disjoint m a : Rel m a ->
  tC (lpos a) + a_avail C a <= (if shasW a then tW (lpos a) else tP (lpos a)) /\
  (shasW a = true -> tW (lpos a) + a_avail W a <= tP (lpos a)) /\
  tP (lpos a) + a_avail P a < tC (ppos a) + slen a /\
  tC (ppos a) <= tC (lpos a).
Proof.
  intros R. destruct (stage_limit m a P R) as [LP OP]. destruct (stage_limit m a W R) as [LW OW].
  destruct (stage_limit m a C R) as [LC OC]. pose proof (r_pos _ _ R).
  unfold a_limit, a_succ in *. simpl in *.
  destruct (shasW a); repeat match goal with |- _ /\ _ => split end; intros; try discriminate; lia.
Qed.

(** [TFrame lo hi t t']: [t'] extends [t] and differs from it only inside [[lo, hi)] *)
Definition TFrame (lo hi : nat) (t t' : list N) : Prop :=
  length t <= length t' /\ forall p, p < length t -> ~ (lo <= p < hi) -> nth p t' 0%N = nth p t 0%N.

Lemma tf_refl lo hi t : TFrame lo hi t t.
Proof. split; auto. Qed.

Lemma tf_trans lo hi t t' t'' : TFrame lo hi t t' -> TFrame lo hi t' t'' -> TFrame lo hi t t''.
Proof.
  intros [L1 F1] [L2 F2]. split; [lia|]. intros p Hp Hn. rewrite F2 by (auto; lia). apply F1; auto.
Qed.

Lemma tf_upd lo hi t q v : lo <= q < hi -> TFrame lo hi t (upd q v t).
Proof. intros Hq. split; [rewrite upd_length; auto|]. intros p Hp Hn. apply nth_upd_neq. lia. Qed.

Lemma tf_write lo hi t q vs : lo <= q -> q + length vs <= hi -> q + length vs <= length t -> TFrame lo hi t (write t q vs).
Proof.
  intros H1 H2 H3. split; [rewrite write_length; auto|]. intros p Hp Hn.
  rewrite (nth_write 0%N) by auto.
  destruct (q <=? p) eqn:E1; simpl; auto. destruct (p <? q + length vs) eqn:E2; auto.
  apply Nat.leb_le in E1. apply Nat.ltb_lt in E2. lia.
Qed.

Lemma tf_extend lo hi len n t : TFrame lo hi t (extend len n t).
Proof. split; [rewrite extend_length; lia|]. intros p Hp _. apply extend_old; auto. Qed.

Lemma tf_publish lo hi k q a : TFrame lo hi (tape a) (tape (a_publish k q a)).
Proof. unfold a_publish. destruct k; simpl; try apply tf_refl. apply tf_extend. Qed.

Lemma tf_advance lo hi k n a : TFrame lo hi (tape a) (tape (a_advance k n a)).
Proof.
  unfold a_advance. destruct (tget k (sdet a)); simpl; [apply tf_refl|].
  apply (tf_publish lo hi k _ (a_set_lpos k (tget k (lpos a) + n) a)).
Qed.

Lemma tf_upd_advance a k n q v : tget k (lpos a) <= q < tget k (lpos a) + a_avail k a ->
  TFrame (tget k (lpos a)) (tget k (lpos a) + a_avail k a) (tape a)
         (tape (a_advance k n (a_set_tape (upd q v (tape a)) a))).
Proof.
  intros Hq. apply (tf_trans _ _ _ (upd q v (tape a))); [apply tf_upd, Hq|].
  apply (tf_advance _ _ k n (a_set_tape (upd q v (tape a)) a)).
Qed.

Lemma tf_push md v a :
  TFrame (tP (lpos a)) (tP (lpos a) + a_avail P a) (tape a) (tape (fst (a_push md v a))).
Proof.
  unfold a_push. destruct (1 <=? a_avail P a) eqn:L; [apply Nat.leb_le in L | apply tf_refl].
  apply (tf_upd_advance a P). cbn [tget]. lia.
Qed.

Lemma tf_push_slice md cl vs a : tP (lpos a) + a_avail P a <= length (tape a) ->
  TFrame (tP (lpos a)) (tP (lpos a) + a_avail P a) (tape a) (tape (fst (a_push_slice md cl vs a))).
Proof.
  intros LT. unfold a_push_slice.
  destruct (length vs <=? a_avail P a) eqn:L; [apply Nat.leb_le in L | apply tf_refl].
  destruct (a_clones_nid cl a vs) as (news & n & -> & Ln). simpl fst.
  apply (tf_trans _ _ _ (write (tape a) (tP (lpos a)) news)); [apply tf_write; lia|].
  apply (tf_advance _ _ P (length vs) (a_set_tape (write (tape a) (tP (lpos a)) news) (a_set_nid n a))).
Qed.

Lemma tf_pop mv a :
  TFrame (tC (lpos a)) (tC (lpos a) + a_avail C a) (tape a) (tape (fst (a_pop mv a))).
Proof.
  unfold a_pop. destruct (1 <=? a_avail C a) eqn:L; [apply Nat.leb_le in L | apply tf_refl].
  destruct mv; [|apply tf_advance]. apply (tf_upd_advance a C). cbn [tget]. lia.
Qed.

Lemma tf_extract_item lo hi cl a : TFrame lo hi (tape a) (tape (fst (a_extract_item cl a))).
Proof.
  unfold a_extract_item. destruct (1 <=? a_avail C a); [|apply tf_refl].
  destruct (a_clones_nid cl a [a_cell (tget C (lpos a)) a]) as (news & n & -> & _).
  apply (tf_advance _ _ C 1 (a_set_nid n a)).
Qed.

Lemma tf_extract_slice lo hi cl n a : TFrame lo hi (tape a) (tape (fst (a_extract_slice cl n a))).
Proof.
  unfold a_extract_slice. destruct (n <=? a_avail C a); [|apply tf_refl].
  destruct (a_clones_nid cl a (sub (tape a) (tget C (lpos a)) n)) as (news & x & -> & _).
  apply (tf_advance _ _ C n (a_set_nid x a)).
Qed.

(** an operation changes the tape only inside the acting iterator's own window; it never shrinks it *)
Lemma frame_of_actor m a o : Rel m a -> ok_op a o = true ->
  match actor o with
  | Some k => TFrame (tget k (lpos a)) (tget k (lpos a) + a_avail k a) (tape a) (tape (fst (sstep a o)))
  | None => True
  end.
Proof.
  intros R OK.
  assert (LT : tP (lpos a) + a_avail P a <= length (tape a)).
  { destruct (stage_limit m a P R) as [L _]. destruct (stage_window m a P R eq_refl) as [_ H].
    rewrite (r_tape _ _ R). simpl in *. lia. }
  destruct o; cbn [actor sstep ok_op tget] in *; auto;
    try (match goal with |- context[if ?g then _ else _] => destruct g end; [|apply tf_refl]);
    rewrite ?grant_state, ?grant_one_state; cbn [fst a_ret];
    auto using tf_refl, tf_advance, tf_push, tf_push_slice, tf_pop, tf_extract_item, tf_extract_slice.
  - (* GetAvail *) destruct (a_avail k a); apply tf_refl.
  - (* GetMult *) destruct r; [|destruct (a_avail k a - a_avail k a mod S r)]; apply tf_refl.
  - (* Poke *) apply Nat.ltb_lt in OK. apply tf_upd. lia.
  - (* PokeInit *) apply Nat.ltb_lt in OK. apply tf_upd. lia.
  - (* Edit *) apply Nat.ltb_lt in OK. apply tf_upd. lia.
  - (* Reset *) destruct k; try apply tf_refl;
      (destruct (a_attached _ a); [|apply tf_refl]); apply (tf_publish _ _ _ _ (a_set_lpos _ _ a)).
  - (* Attach *) apply (tf_publish _ _ k).
  - (* Sync *) apply (tf_publish _ _ k).
Qed.

Theorem C01_frame m a o k : Rel m a -> ok_op a o = true -> actor o = Some k ->
  TFrame (tget k (lpos a)) (tget k (lpos a) + a_avail k a) (tape a) (tape (fst (sstep a o))).
Proof. intros R OK A. pose proof (frame_of_actor m a o R OK) as H. rewrite A in H. exact H. Qed.

(** single-item reads of the consumer: the item at the consumer's position, inside the released region *)
Theorem C01_read_item a (mv : bool) a' v evs : a_attached C a = true ->
  sstep a (if mv then PopMove else Pop) = (a', (OVal v, evs)) ->
  1 <= a_avail C a /\ v = nth (tC (lpos a)) (tape a) 0%N /\ tC (lpos a') = tC (lpos a) + 1.
Proof.
  intros G H. destruct mv; cbn [sstep] in H; rewrite G in H; unfold a_pop in H;
    destruct (1 <=? a_avail C a) eqn:L; try discriminate; apply Nat.leb_le in L;
    inversion H; subst; clear H; repeat split; auto;
    unfold a_advance; simpl; destruct (tC (sdet a)); reflexivity.
Qed.

(** slice reads: exactly the next [n] positions, in order, all released *)
Theorem C01_read_slice a n a' vs evs : a_attached C a = true -> sowned a = false ->
  sstep a (CopySlice n) = (a', (ODst vs, evs)) ->
  n <= a_avail C a /\ vs = sub (tape a) (tC (lpos a)) n /\ tC (lpos a') = tC (lpos a) + n.
Proof.
  intros G O H. cbn [sstep] in H. unfold a_plain in H. rewrite G, O in H. simpl in H. unfold a_extract_slice in H.
  destruct (n <=? a_avail C a) eqn:L; try discriminate. apply Nat.leb_le in L.
  inversion H; subst; clear H. repeat split; auto.
  unfold a_advance; simpl; destruct (tC (sdet a)); reflexivity.
Qed.

(** an accepted push stores the value at the producer's position and moves one position on:
    successive pushes fill consecutive positions *)
Theorem C01_push_position a v a' evs : a_attached P a = true ->
  sstep a (Push v) = (a', (OOk, evs)) -> tP (lpos a) < length (tape a) ->
  nth (tP (lpos a)) (tape a') 0%N = v /\ tP (lpos a') = tP (lpos a) + 1.
Proof.
  intros G H Hl. cbn [sstep] in H. rewrite G in H. unfold a_push in H.
  destruct (1 <=? a_avail P a) eqn:L; try discriminate. inversion H; subst; clear H.
  split.
  - destruct (tf_advance 0 0 P 1 (a_set_tape (upd (tP (lpos a)) v (tape a)) a)) as [_ F].
    simpl in F. rewrite F by (try rewrite upd_length; auto; lia). apply nth_upd_eq; auto.
  - unfold a_advance; simpl; destruct (tP (sdet a)); reflexivity.
Qed.

(** the usual loop body [let n = it.available(); unsafe { it.advance(n) }] (history lines [avail K], [adv K =n]): whatever number the
    Model's [available()] answers, advancing by it respects rule K1, and the two steps together refine the Spec - for every stage,
    attached or detached, in every reachable state *)
Theorem avail_then_advance m a k n : Rel m a ->
  fst (snd (step m (Avail k))) = ONum n ->
  n = a_avail k a /\
  ok_op (fst (sstep a (Avail k))) (Advance k n) = true /\
  refines (step (fst (step m (Avail k))) (Advance k n)) (sstep (fst (sstep a (Avail k))) (Advance k n)).
Proof.
  intros R H. pose proof (step_refines m a (Avail k) R eq_refl) as [E R1].
  rewrite E in H.
  assert (S : sstep a (Avail k) = a_ret a (ONum (a_avail k a)) \/ sstep a (Avail k) = a_bad a)
    by (cbn [sstep]; destruct (a_usable k a); auto).
  destruct S as [S|S]; rewrite S in H, R1 |- *; cbn [a_ret a_bad fst snd] in H, R1 |- *; [| discriminate H].
  injection H as H. subst n. split; [reflexivity|].
  assert (OK : ok_op a (Advance k (a_avail k a)) = true) by (cbn [ok_op]; apply Nat.leb_refl).
  split; [exact OK|]. apply (step_refines _ a _ R1 OK).
Qed.
