(** * End-to-end FIFO for the sequential Spec: two-stage pipeline (producer -> consumer), plain items.

    Over histories made of pushes, advancing consumer reads, peeks and availability queries,
    what the consumer has obtained, followed by what is still in the buffer, is exactly what was in
    flight at the start followed by the accepted pushes:

        pending a ++ accepted a h = consumed a h ++ pending (final state)

    so nothing is lost, duplicated, reordered or invented.  Also: at most [len - 1] items are ever
    in flight. *)
From Coq Require Import List Arith NArith Lia.
Import ListNotations.
Require Import MRB.Base.Ring MRB.Base.ListAux MRB.Model.Types MRB.Model.Seq MRB.Spec.Pipe.
Require Import MRB.Proofs.Rel MRB.Proofs.TapeFacts MRB.Proofs.Refine.

Definition fifo_op (o : op) : bool :=
  match o with
  | Push _ | PushSlice _ | Avail P => true                    (* producer *)
  | Pop | CopyItem | CopySlice _ | Avail C => true            (* consumer, advancing reads *)
  | GetExact C _ | GetOne C => true                           (* consumer, peeks *)
  | _ => false
  end.

(** every such operation respects the contract, whatever the state *)
Lemma fifo_op_ok a o : fifo_op o = true -> ok_op a o = true.
Proof. destruct o; try discriminate; reflexivity. Qed.

(** the items not yet read: from the consumer's local position to the producer's *)
Definition pending (a : pipe) : list N :=
  sub (tape a) (tC (lpos a)) (tP (lpos a) - tC (lpos a)).

(** what one operation makes the buffer accept *)
Definition accepted1 (a : pipe) (o : op) : list N :=
  match o with
  | Push v => match fst (snd (sstep a o)) with OOk => [v] | _ => [] end
  | PushSlice vs => match fst (snd (sstep a o)) with OOk => vs | _ => [] end
  | _ => []
  end.

(** what one operation hands to the consumer while advancing *)
Definition consumed1 (a : pipe) (o : op) : list N :=
  match o with
  | Pop => match fst (snd (sstep a o)) with OVal v => [v] | _ => [] end
  | CopyItem => match fst (snd (sstep a o)) with ODst l => l | _ => [] end
  | CopySlice _ => match fst (snd (sstep a o)) with ODst l => l | _ => [] end
  | _ => []
  end.

Fixpoint accepted (a : pipe) (h : list op) : list N :=
  match h with
  | [] => []
  | o :: r => accepted1 a o ++ accepted (fst (sstep a o)) r
  end.

Fixpoint consumed (a : pipe) (h : list op) : list N :=
  match h with
  | [] => []
  | o :: r => consumed1 a o ++ consumed (fst (sstep a o)) r
  end.

Fixpoint sfinal (a : pipe) (h : list op) : pipe :=
  match h with
  | [] => a
  | o :: r => sfinal (fst (sstep a o)) r
  end.

Lemma sfinal_srun h : forall a, sfinal a h = fst (fst (srun a h)).
Proof.
  induction h as [|o r IH]; intros a; simpl; auto.
  rewrite IH. destruct (sstep a o) as [a1 x]. simpl.
  destruct (srun a1 r) as [[a2 xs] okr]. reflexivity.
Qed.

Lemma fifo_history_ok h : forall a, forallb fifo_op h = true -> snd (srun a h) = true.
Proof.
  induction h as [|o r IH]; intros a H; simpl; auto.
  simpl in H. apply andb_prop in H as [Ho Hr].
  rewrite (fifo_op_ok a o Ho).
  destruct (sstep a o) as [a1 x]. specialize (IH a1 Hr).
  destruct (srun a1 r) as [[a2 xs] okr]. simpl in *. exact IH.
Qed.

(** ** The invariant: a reachable two-stage plain state with nothing detached *)
Record Inv (a : pipe) : Prop := mkInv {
  i_rel : exists m, Rel m a;
  i_noW : shasW a = false;
  i_plain : sowned a = false;
  i_detP : tP (sdet a) = false;
  i_detC : tC (sdet a) = false
}.

Lemma inv_att a : Inv a -> tC (lpos a) = tC (ppos a) /\ tP (lpos a) = tP (ppos a).
Proof.
  intros I. destruct (i_rel a I) as [m R].
  split; [apply (r_att _ _ R C (i_detC a I)) | apply (r_att _ _ R P (i_detP a I))].
Qed.

Lemma inv_chain a : Inv a ->
  tC (lpos a) + a_avail C a <= tP (lpos a) /\ tP (lpos a) + a_avail P a <= tC (lpos a) + slen a - 1 /\
  length (tape a) = tC (lpos a) + slen a /\ 0 < slen a.
Proof.
  intros I. destruct (i_rel a I) as [m R], (inv_att a I) as [AC AP].
  pose proof (r_oC _ _ R) as HC. pose proof (r_oP _ _ R) as HP. pose proof (r_oS _ _ R) as HS.
  pose proof (r_pos _ _ R) as Hl. pose proof (r_tape _ _ R) as Ht.
  unfold a_avail, a_succ in *. rewrite (i_noW a I) in *. simpl in *.
  repeat match goal with |- _ /\ _ => split end; lia.
Qed.

(** storing [vs] at the producer's position and advancing appends [vs] to the items in flight *)
Lemma produce a vs : Inv a -> length vs <= a_avail P a ->
  pending (a_advance P (length vs) (a_set_tape (write (tape a) (tP (lpos a)) vs) a)) = pending a ++ vs.
Proof.
  intros I L. destruct (inv_chain a I) as (H2 & H3 & H4 & H5).
  unfold a_advance. cbn [tget a_set_tape sdet]. rewrite (i_detP a I).
  unfold pending. cbn [a_publish a_set_lpos a_set_tape tape lpos tget tset tP tC].
  replace (tP (lpos a) + length vs - tC (lpos a)) with ((tP (lpos a) - tC (lpos a)) + length vs) by lia.
  rewrite sub_app.
  replace (tC (lpos a) + (tP (lpos a) - tC (lpos a))) with (tP (lpos a)) by lia.
  rewrite (sub_write_same 0%N) by lia. f_equal.
  apply (sub_ext 0%N); rewrite ?write_length; try lia.
  intros q Hq. rewrite (nth_write 0%N) by lia.
  bf (tP (lpos a) <=? q). reflexivity.
Qed.

(** advancing the consumer by [n] removes the first [n] items in flight and keeps the rest *)
Lemma consume a n : Inv a -> n <= a_avail C a ->
  pending a = sub (tape a) (tC (lpos a)) n ++ pending (a_advance C n a).
Proof.
  intros I L. destruct (inv_chain a I) as (H2 & H3 & H4 & H5).
  unfold a_advance. cbn [tget]. rewrite (i_detC a I).
  unfold pending at 2. cbn [a_publish a_set_lpos tape lpos tget tset tP tC slen].
  unfold pending.
  replace (tP (lpos a) - tC (lpos a)) with (n + (tP (lpos a) - (tC (lpos a) + n))) by lia.
  rewrite sub_app. f_equal.
  replace (n + (tP (lpos a) - (tC (lpos a) + n)) - n) with (tP (lpos a) - (tC (lpos a) + n)) by lia.
  symmetry. apply (sub_ext 0%N); rewrite ?extend_length; try lia.
  intros q Hq. apply extend_old. lia.
Qed.

Lemma fifo_op_data o : fifo_op o = true -> reshapes o = false.
Proof. destruct o; auto; discriminate. Qed.

Lemma sfinal_cfg (ok : op -> bool) : (forall o, ok o = true -> reshapes o = false) ->
  forall h a, forallb ok h = true -> same_cfg a (sfinal a h).
Proof.
  intros Hok. induction h as [|o r IH]; intros a H; simpl; [apply cfg_refl|].
  simpl in H. apply andb_prop in H as [Ho Hr].
  destruct (sstep_cfg a o (Hok o Ho)) as (A1 & A2 & A3 & A4), (IH (fst (sstep a o)) Hr) as (B1 & B2 & B3 & B4).
  repeat split; congruence.
Qed.

Lemma inv_step a o : Inv a -> fifo_op o = true -> Inv (fst (sstep a o)).
Proof.
  intros I F. destruct (i_rel a I) as [m R].
  pose proof (sstep_cfg a o (fifo_op_data o F)) as K.
  constructor.
  - exists (fst (step m o)). apply (step_refines m a o R (fifo_op_ok a o F)).
  - rewrite (cfg_hasW _ _ K). apply (i_noW a I).
  - rewrite (cfg_owned _ _ K). apply (i_plain a I).
  - rewrite (cfg_det _ _ K). apply (i_detP a I).
  - rewrite (cfg_det _ _ K). apply (i_detC a I).
Qed.

Lemma inv_run h : forall a, Inv a -> forallb fifo_op h = true -> Inv (sfinal a h).
Proof.
  induction h as [|o r IH]; intros a I H; simpl; auto.
  simpl in H. apply andb_prop in H as [Ho Hr]. apply IH; auto. apply inv_step; auto.
Qed.

Inductive Move (a : pipe) : pipe -> list N -> list N -> Prop :=
| MStay : Move a a [] []
| MProduce vs : length vs <= a_avail P a ->
    Move a (a_advance P (length vs) (a_set_tape (write (tape a) (tP (lpos a)) vs) a)) vs []
| MConsume n : n <= a_avail C a -> Move a (a_advance C n a) [] (sub (tape a) (tC (lpos a)) n).

Lemma fifo_move a o : fifo_op o = true -> tC (lpos a) + a_avail C a <= length (tape a) ->
  Move a (fst (sstep a o)) (accepted1 a o) (consumed1 a o).
Proof.
  intros F LT.
  destruct o; try discriminate; try (destruct k; try discriminate);
    unfold accepted1, consumed1; cbn [sstep];
    match goal with |- context[if ?g then _ else _] => destruct g end; try apply MStay.
  - (* GetOne C *) rewrite grant_one_state. apply MStay.
  - (* GetExact C *) rewrite grant_state. apply MStay.
  - (* Push *) unfold a_push. destruct (1 <=? a_avail P a) eqn:L; cbn [a_rete a_ret fst snd]; [|apply MStay].
    apply (MProduce a [v]), Nat.leb_le, L.
  - (* PushSlice *) unfold a_push_slice. destruct (length vs <=? a_avail P a) eqn:L; cbn [a_rete a_ret fst snd]; [|apply MStay].
    apply MProduce, Nat.leb_le, L.
  - (* Pop *) unfold a_pop. destruct (1 <=? a_avail C a) eqn:L; cbn [a_rete a_ret fst snd]; [apply Nat.leb_le in L|apply MStay].
    unfold a_cell. cbn [tget]. rewrite <- (sub_one 0%N) by lia. apply MConsume, L.
  - (* CopyItem *) unfold a_extract_item. destruct (1 <=? a_avail C a) eqn:L; cbn [a_rete a_ret fst snd]; [apply Nat.leb_le in L|apply MStay].
    unfold a_cell. cbn [tget]. rewrite <- (sub_one 0%N) by lia. apply MConsume, L.
  - (* CopySlice *) unfold a_extract_slice. destruct (n <=? a_avail C a) eqn:L; cbn [a_rete a_ret fst snd]; [|apply MStay].
    apply MConsume, Nat.leb_le, L.
Qed.

Lemma fifo_step a o : Inv a -> fifo_op o = true ->
  pending a ++ accepted1 a o = consumed1 a o ++ pending (fst (sstep a o)).
Proof.
  intros I F. destruct (inv_chain a I) as (H2 & H3 & H4 & H5).
  destruct (fifo_move a o F ltac:(lia)) as [|vs L|n L].
  - apply app_nil_r.
  - symmetry. exact (produce a vs I L).
  - rewrite app_nil_r. exact (consume a n I L).
Qed.

Theorem FIFO h : forall a, Inv a -> forallb fifo_op h = true ->
  pending a ++ accepted a h = consumed a h ++ pending (sfinal a h).
Proof.
  induction h as [|o r IH]; intros a I H; simpl.
  - rewrite app_nil_r. reflexivity.
  - simpl in H. apply andb_prop in H as [Ho Hr].
    rewrite app_assoc, (fifo_step a o I Ho), <- !app_assoc. f_equal.
    apply IH; auto. apply inv_step; auto.
Qed.

(** ** Capacity: never more than [len - 1] items in flight *)
Theorem FIFO_capacity a : Inv a -> length (pending a) <= slen a - 1.
Proof.
  intros I. destruct (inv_chain a I) as (H2 & H3 & H4 & H5).
  unfold pending. rewrite sub_length by lia. lia.
Qed.

(** the same, on the final state of [srun] and with the invariant spelled out: any state related
    to a Model state, two stages, plain items, nothing detached; the history respects the contract *)
Theorem FIFO_rel m a h :
  Rel m a -> shasW a = false -> sowned a = false -> tP (sdet a) = false -> tC (sdet a) = false ->
  forallb fifo_op h = true ->
  snd (srun a h) = true /\
  pending a ++ accepted a h = consumed a h ++ pending (fst (fst (srun a h))) /\
  length (pending (fst (fst (srun a h)))) <= slen a - 1.
Proof.
  intros R HW HO DP DC H.
  assert (I : Inv a) by (constructor; eauto).
  rewrite <- sfinal_srun.
  repeat match goal with |- _ /\ _ => split end.
  - apply fifo_history_ok; auto.
  - apply FIFO; auto.
  - rewrite <- (cfg_slen _ _ (sfinal_cfg fifo_op fifo_op_data h a H)).
    apply FIFO_capacity, inv_run; auto.
Qed.

Corollary FIFO_capacity_run a h : Inv a -> forallb fifo_op h = true ->
  length (pending (sfinal a h)) <= slen (sfinal a h) - 1.
Proof. intros I H. apply FIFO_capacity. apply inv_run; auto. Qed.

(** ** From the initial state: nothing in flight *)
Lemma inv_init c a : a_init c = Some a -> c_worker c = false -> c_owned c = false ->
  Inv a /\ pending a = [].
Proof.
  intros Ha HW HO. pose proof (init_refines c) as R. rewrite Ha in R.
  destruct (init c) as [m|]; [|contradiction].
  unfold a_init in Ha. destruct (length (c_init c)) eqn:E; try discriminate.
  inversion Ha; subst; clear Ha.
  split.
  - constructor; simpl; auto. exists m. exact R.
  - reflexivity.
Qed.

Theorem FIFO_init c a h : a_init c = Some a -> c_worker c = false -> c_owned c = false ->
  forallb fifo_op h = true ->
  snd (srun a h) = true /\
  accepted a h = consumed a h ++ pending (fst (fst (srun a h))) /\
  (exists rest, accepted a h = consumed a h ++ rest) /\
  length (pending (fst (fst (srun a h)))) <= length (c_init c) - 1.
Proof.
  intros Ha HW HO H. destruct (inv_init c a Ha HW HO) as [I E0].
  pose proof (FIFO h a I H) as F. rewrite E0 in F. simpl in F.
  rewrite <- sfinal_srun.
  repeat match goal with |- _ /\ _ => split end; auto.
  - apply fifo_history_ok; auto.
  - eexists; exact F.
  - destruct (i_rel a I) as [m R].
    destruct (FIFO_rel m a h R (i_noW a I) (i_plain a I) (i_detP a I) (i_detC a I) H) as (_ & _ & Cap).
    rewrite <- sfinal_srun in Cap.
    assert (El : slen a = length (c_init c)).
    { unfold a_init in Ha. destruct (length (c_init c)) eqn:E; try discriminate.
      inversion Ha; subst; reflexivity. }
    rewrite <- El. exact Cap.
Qed.

Print Assumptions FIFO.
Print Assumptions FIFO_rel.
Print Assumptions FIFO_init.
