(** * C08 / C09: the ownership ledger of owned items.

    [live m]: the values the buffer owns (non-empty cells of an unreleased buffer).  Every operation is
    accounted for: what enters (taken from the caller, cloned into the buffer) equals what stays plus what
    leaves (destroyed, handed out, or - off contract - lost).  Under the documented initialisation rules no
    empty cell is ever read or dropped and nothing is lost, so every value leaves exactly once. *)
From Coq Require Import List Arith NArith Bool Lia.
Import ListNotations.
Require Import MRB.Base.Ring MRB.Base.ListAux MRB.Model.Types MRB.Model.Seq MRB.Spec.Pipe.
Require Import MRB.Proofs.Rel MRB.Proofs.TapeFacts MRB.Proofs.Refine MRB.Proofs.Variants.

Definition live (m : mstate) : list N := if freed m then [] else slots m.
Definition cnt (v : N) (l : list N) : nat := count_occ N.eq_dec l v.
Definition is (v x : N) : nat := if N.eq_dec x v then 1 else 0.
Arguments cnt : simpl never.

Definition ev_in (v : N) (e : lev) : nat := match e with LTake x | LMake x => is v x | _ => 0 end.
Definition ev_out (v : N) (e : lev) : nat := match e with LDrop x | LGive x | LLost x => is v x | _ => 0 end.
Definition ins (v : N) (l : list lev) : nat := fold_right (fun e n => ev_in v e + n) 0 l.
Definition outs (v : N) (l : list lev) : nat := fold_right (fun e n => ev_out v e + n) 0 l.

(** clones made by [clone_item] / [clone_slice] go straight to the caller *)
Definition handed (o : op) : bool := match o with CloneItem | CloneSlice _ => true | _ => false end.

(** the caller never passes an all-zero value as a live one *)
Definition vals_ok (o : op) : bool :=
  match o with
  | Push v | PushInit v | Poke _ _ v | PokeInit _ _ v => negb (isz v)
  | PushSliceClone vs | PushSliceCloneInit vs => forallb (fun v => negb (isz v)) vs
  | _ => true
  end.

Lemma ins_app v l1 l2 : ins v (l1 ++ l2) = ins v l1 + ins v l2.
Proof. induction l1; simpl; auto. rewrite IHl1. lia. Qed.
Lemma outs_app v l1 l2 : outs v (l1 ++ l2) = outs v l1 + outs v l2.
Proof. induction l1; simpl; auto. rewrite IHl1. lia. Qed.
Lemma cnt_app v l1 l2 : cnt v (l1 ++ l2) = cnt v l1 + cnt v l2.
Proof. unfold cnt. apply count_occ_app. Qed.
Lemma cnt_cons v x l : cnt v (x :: l) = is v x + cnt v l.
Proof. unfold cnt, is. simpl. destruct (N.eq_dec x v); lia. Qed.

Lemma cnt_upd v i x l : i < length l ->
  cnt v (upd i x l) + is v (nth i l 0%N) = cnt v l + is v x.
Proof.
  revert i; induction l as [|y l IH]; intros i H; simpl in *; [lia|].
  destruct i; simpl.
  - rewrite !cnt_cons. lia.
  - rewrite !cnt_cons. specialize (IH i ltac:(lia)). lia.
Qed.

Lemma cnt_write v l i vs : i + length vs <= length l ->
  cnt v (write l i vs) + cnt v (sub l i (length vs)) = cnt v l + cnt v vs.
Proof.
  revert l i; induction vs as [|x vs IH]; intros l i H; simpl in *.
  - unfold sub. simpl. unfold cnt. simpl. lia.
  - rewrite (sub_cons_nth 0%N) by lia. rewrite !cnt_cons.
    specialize (IH (upd i x l) (S i)). rewrite upd_length in IH. specialize (IH ltac:(lia)).
    rewrite (sub_upd_after 0%N) in IH by lia.
    pose proof (cnt_upd v i x l ltac:(lia)). lia.
Qed.

(** the two-slice write of [_push_slice]: what it overwrites is what the two slices held *)
Lemma cnt_wr v m i vs : length (slots m) = mlen m -> i < mlen m -> length vs <= mlen m ->
  cnt v (slots (wr m i vs)) + cnt v (fst (rd m i (length vs)) ++ snd (rd m i (length vs))) = cnt v (slots m) + cnt v vs.
Proof.
  intros Hl Hi Hn. unfold wr, rd. pose proof (chunk_sum (mlen m) i (length vs) Hi) as Hs.
  pose proof (chunk_bounds (mlen m) i (length vs) Hi Hn) as [Hb1 Hb2].
  destruct (chunk (mlen m) i (length vs)) as [h t]. simpl in *.
  rewrite cnt_app.
  pose proof (cnt_write v (slots m) i (firstn h vs)) as W1. rewrite firstn_length in W1.
  replace (Nat.min h (length vs)) with h in W1 by lia. specialize (W1 ltac:(lia)).
  pose proof (cnt_write v (write (slots m) i (firstn h vs)) 0 (skipn h vs)) as W2.
  rewrite skipn_length, write_length in W2. replace (length vs - h) with t in W2 by lia. specialize (W2 ltac:(lia)).
  rewrite (sub_write_before 0%N) in W2 by (try rewrite firstn_length; lia).
  assert (cnt v vs = cnt v (firstn h vs) + cnt v (skipn h vs)) by (rewrite <- cnt_app, firstn_skipn; reflexivity).
  lia.
Qed.

Lemma outs_store_ev v md o : md <> SCopy -> v <> 0%N -> outs v (store_ev md o) = is v o.
Proof.
  intros Hm Hv. unfold store_ev, isz, is. destruct md; try congruence;
    destruct (N.eqb_spec o 0); simpl; unfold is; try (subst; destruct (N.eq_dec 0 v); congruence); lia.
Qed.
Lemma ins_store_ev v md o : ins v (store_ev md o) = 0.
Proof. destruct md; simpl; destruct (isz o); reflexivity. Qed.

Lemma outs_store v md olds : md <> SCopy -> v <> 0%N -> outs v (store_evs md olds) = cnt v olds.
Proof.
  intros Hm Hv. induction olds as [|o r IH]; simpl; auto. rewrite outs_app, IH, cnt_cons, outs_store_ev; auto.
Qed.
Lemma ins_store v md olds : ins v (store_evs md olds) = 0.
Proof. induction olds as [|o r IH]; simpl; auto. rewrite ins_app, IH, ins_store_ev. reflexivity. Qed.

Lemma ins_clone_evs v srcs news : length srcs = length news -> forallb (fun x => negb (isz x)) srcs = true ->
  ins v (clone_evs srcs news) = cnt v news.
Proof.
  revert news; induction srcs as [|a sr IH]; intros [|b nr] L F; simpl in *; try discriminate; auto.
  apply andb_prop in F as [Fa Fr]. destruct (isz a); try discriminate. simpl.
  rewrite (IH nr ltac:(lia) Fr), cnt_cons. reflexivity.
Qed.
Lemma outs_clone_evs v srcs news : outs v (clone_evs srcs news) = 0.
Proof. revert news; induction srcs as [|a sr IH]; intros [|b nr]; simpl; auto. destruct (isz a); simpl; auto. Qed.

(** releasing treats every cell as an [*_init] store does *)
Lemma release_store l : release_evs l = store_evs SInit l.
Proof. induction l as [|x l IH]; simpl; [|rewrite <- IH]; reflexivity. Qed.

Lemma outs_release v l : v <> 0%N -> outs v (release_evs l) = cnt v l.
Proof. intros Hv. rewrite release_store. apply outs_store; auto. discriminate. Qed.
Lemma ins_release v l : ins v (release_evs l) = 0.
Proof. rewrite release_store. apply ins_store. Qed.

Lemma live_advance k n m : live (advance k n m) = live m.
Proof. unfold live, advance. destruct (det (it_of k m)); reflexivity. Qed.

Lemma freed_wr m i vs : freed (wr m i vs) = freed m.
Proof. unfold wr. destruct (chunk (mlen m) i (length vs)); reflexivity. Qed.

Definition conserves (v : N) (m : mstate) (o : op) (r : res) : Prop :=
  cnt v (live (fst r)) + outs v (snd (snd r)) + (if handed o then ins v (snd (snd r)) else 0)
  = cnt v (live m) + ins v (snd (snd r)).

Lemma conserves_same v m o m' x : live m' = live m -> conserves v m o (m', (x, [])).
Proof. intros H. unfold conserves. simpl. rewrite H. destruct (handed o); lia. Qed.

Lemma conserves_if v m o (g : bool) r : (g = true -> conserves v m o r) -> conserves v m o (if g then r else bad m).
Proof. destruct g; [auto | intros; apply conserves_same; reflexivity]. Qed.

Lemma guarded_same v m o k n no work m0 : live m0 = live m ->
  (forall c, conserves v m o (work (set_ca k c m0))) -> conserves v m o (guarded k n work no m0).
Proof.
  intros L H. unfold guarded. destruct (check_set_ca k n m0) as [c E]. destruct (check k n m0) as [[] m1]; simpl in E; subst m1.
  - apply H.
  - apply conserves_same, L.
Qed.

Lemma grant_cons v m o k n m0 : live m0 = live m -> conserves v m o (grant k n m0).
Proof. intros L. apply guarded_same; auto. intros c. destruct (rd _ _ n). apply conserves_same, L. Qed.

Lemma grant_one_cons v m o k : conserves v m o (grant_one k m).
Proof. apply guarded_same; auto. intros c. apply conserves_same. reflexivity. Qed.

Lemma ix_lt m a k : Rel m a -> a_usable k a = true -> ix (it_of k m) < length (slots m).
Proof.
  intros R U. rewrite (ix_eq m a k R U), (r_slots _ _ R). apply Nat.mod_upper_bound. pose proof (r_pos _ _ R). lia.
Qed.

Section Cons.
Variables (m : mstate) (a : pipe) (v : N).
Hypothesis R : Rel m a.
Hypothesis Hv : v <> 0%N.
Hypothesis Ow : owned m = true.

Lemma not_freed k : a_usable k a = true -> freed m = false.
Proof.
  intros U. rewrite (r_freed _ _ R). unfold a_usable in U. apply andb_prop in U as [U _]. apply andb_prop in U as [U _].
  apply negb_true_iff in U. exact U.
Qed.

Lemma check_cons k n o no (work : mstate -> res) : a_usable k a = true ->
  (forall c, Rel (set_ca k c m) a -> n <= length (slots m) - 1 -> conserves v m o (work (set_ca k c m))) ->
  conserves v m o (guarded k n work no m).
Proof.
  intros U H. unfold guarded. destruct (check_set_ca k n m) as [c E].
  destruct (check k n m) as [g m1] eqn:Ec. simpl in E. subst m1.
  destruct (rel_check _ _ _ _ _ _ R U Ec) as [-> R1].
  destruct (n <=? a_avail k a) eqn:Hg; [|apply conserves_same; reflexivity]. apply H; auto.
  apply Nat.leb_le in Hg. pose proof (window_bounds m a k R U) as [W1 W2]. rewrite (r_slots _ _ R). lia.
Qed.

Lemma rete_cons o s k n x l : freed m = false -> owned s = true -> freed s = false ->
  cnt v (slots s) + outs v l + (if handed o then ins v l else 0) = cnt v (slots m) + ins v l ->
  conserves v m o (rete (advance k n s) x l).
Proof.
  intros F0 Os Fs H. unfold conserves, rete, ev. simpl. rewrite owned_advance, Os, live_advance.
  unfold live. rewrite Fs, F0. exact H.
Qed.

Lemma is_zero : is v 0%N = 0.
Proof. unfold is. destruct (N.eq_dec 0 v); congruence. Qed.

Lemma push_cons md x o : a_usable P a = true -> md <> SCopy -> handed o = false -> conserves v m o (push md x m).
Proof.
  intros U Hm Ho. apply check_cons; auto. intros c R1 _.
  apply rete_cons; auto; [apply (not_freed P U) | apply (not_freed P U) |]. simpl.
  rewrite Ho, outs_app, ins_app, ins_store_ev, outs_store_ev by auto. simpl.
  pose proof (cnt_upd v _ x (slots m) (ix_lt m a P R U)) as K. unfold slot. simpl. cbn [it_of tget] in K. lia.
Qed.

Lemma pop_cons (mv : bool) o : a_usable C a = true -> handed o = false -> conserves v m o (pop mv m).
Proof.
  intros U Ho. apply check_cons; auto. intros c R1 _.
  pose proof (cnt_upd v _ 0%N (slots m) (ix_lt m a C R U)) as K. rewrite is_zero in K. cbn [it_of tget] in K.
  unfold slot. destruct mv; apply rete_cons; auto; try apply (not_freed C U); simpl; rewrite Ho;
    destruct (isz (nth (ix (tC (its m))) (slots m) 0%N)) eqn:Z; simpl; try lia.
  unfold isz in Z. apply N.eqb_eq in Z. rewrite Z, is_zero in K. lia.
Qed.

Lemma poke_cons md k off x o : a_usable k a = true -> off < a_avail k a -> md <> SCopy -> handed o = false ->
  conserves v m o (poke md k off x m).
Proof.
  intros U Hoff Hm Ho. unfold poke.
  pose proof (window_bounds m a k R U) as [W1 W2]. pose proof (r_pos _ _ R) as Hl.
  assert (I : wadd (mlen m) (ix (it_of k m)) off < length (slots m)).
  { pose proof (ix_lt m a k R U). rewrite (r_slots _ _ R), (r_len _ _ R) in *. apply wadd_lt; lia. }
  unfold conserves, rete, ev. simpl. rewrite Ow, Ho. unfold live. simpl. rewrite (not_freed k U).
  rewrite outs_app, ins_app, ins_store_ev, outs_store_ev by auto. simpl.
  pose proof (cnt_upd v _ x (slots m) I) as K. unfold slot. lia.
Qed.

Lemma push_slice_cons md vs o : a_usable P a = true -> md <> SCopy ->
  forallb (fun x => negb (isz x)) vs = true -> handed o = false ->
  conserves v m o (push_slice md true vs m).
Proof.
  intros U Hm NZ Ho. apply check_cons; auto. intros c R1 B1. set (m1 := set_ca P c m).
  destruct (rd m1 (ix (it_of P m1)) (length vs)) as [h t] eqn:Er.
  unfold clones. change (owned m1) with (owned m). rewrite Ow.
  set (news := ids (nid m1) (length vs)). set (m2 := set_nid (nid m1 + N.of_nat (length vs)) m1).
  assert (Ln : length news = length vs) by apply ids_length.
  pose proof (cnt_wr v m2 (ix (it_of P m1)) news) as W. rewrite Ln in W.
  change (rd m2 (ix (it_of P m1)) (length vs)) with (rd m1 (ix (it_of P m1)) (length vs)) in W.
  rewrite Er in W. cbn [fst snd] in W. change (slots m2) with (slots m) in W. change (mlen m2) with (mlen m) in W.
  pose proof (ix_lt m1 a P R1 U) as I. change (slots m1) with (slots m) in I.
  rewrite (r_slots _ _ R), <- (r_len _ _ R) in I, B1.
  specialize (W ltac:(rewrite (r_slots _ _ R), (r_len _ _ R); reflexivity) I ltac:(lia)).
  apply rete_cons; [apply (not_freed P U) | rewrite owned_wr; exact Ow | rewrite freed_wr; apply (not_freed P U) |].
  rewrite Ho, outs_app, ins_app, ins_store, outs_store by auto.
  rewrite (ins_clone_evs v vs news (eq_sym Ln) NZ), outs_clone_evs. lia.
Qed.

Lemma extract_item_cons : a_usable C a = true -> conserves v m CloneItem (extract_item true m).
Proof.
  intros U. apply check_cons; auto. intros c R1 _.
  unfold clones. change (owned (set_ca C c m)) with (owned m). rewrite Ow.
  apply rete_cons; auto; try apply (not_freed C U). simpl.
  destruct (isz (slot _ _)); simpl; lia.
Qed.

Lemma extract_slice_cons n : a_usable C a = true -> conserves v m (CloneSlice n) (extract_slice true n m).
Proof.
  intros U. apply check_cons; auto. intros c R1 _.
  destruct (rd _ _ n) as [h t].
  unfold clones. change (owned (set_ca C c m)) with (owned m). rewrite Ow.
  apply rete_cons; auto; try apply (not_freed C U). simpl. rewrite outs_clone_evs. lia.
Qed.

Lemma drop_iter_cons k : a_usable k a = true -> conserves v m (DropIter k) (drop_iter k m).
Proof.
  intros U. unfold drop_iter, conserves, rete, ev, live. simpl. rewrite Ow, (not_freed k U). simpl.
  destruct (negb (tP (tset k false (flag m))) && negb (tW (tset k false (flag m))) && negb (tC (tset k false (flag m))) && heap m); simpl.
  - rewrite outs_release, ins_release by auto. unfold cnt. simpl. lia.
  - lia.
Qed.
End Cons.

(** every operation of a contract-respecting history over owned items is accounted for *)
Theorem conservation m a o v : Rel m a -> ok_op a o = true -> owned m = true -> vals_ok o = true -> v <> 0%N ->
  conserves v m o (step m o).
Proof.
  intros R OK Ow VO Hv.
  assert (PL : plain m = false) by (unfold plain; rewrite Ow; reflexivity).
  destruct o; cbn [step ok_op vals_ok] in *; rewrite ?PL, ?andb_false_r;
    try (apply conserves_if; intros G); try discriminate G;
    try (lazymatch goal with
         | |- conserves _ _ _ (ret _ _) => apply conserves_same; reflexivity
         | |- conserves _ _ _ (bad _) => apply conserves_same; reflexivity
         end);
    try rewrite (usable_eq _ _ _ R) in G; try (rewrite (attached_eq _ _ _ R) in G; apply attached_usable in G).
  - (* Avail *) apply conserves_same; reflexivity.
  - (* Advance *) apply conserves_same. apply live_advance.
  - (* GetOne *) apply grant_one_cons.
  - (* GetExact *) apply grant_cons; reflexivity.
  - (* GetAvail *)
    unfold refresh. destruct (fresh k m); [apply conserves_same; reflexivity|]. apply grant_cons; reflexivity.
  - (* GetMult *)
    unfold refresh. destruct r; [apply conserves_same; reflexivity|].
    destruct (fresh k m - fresh k m mod S r); [apply conserves_same; reflexivity|]. apply grant_cons; reflexivity.
  - (* Poke *) apply Nat.ltb_lt in OK. apply (poke_cons m a v R Hv Ow); auto. discriminate.
  - (* PokeInit *) apply Nat.ltb_lt in OK. apply (poke_cons m a v R Hv Ow); auto. discriminate.
  - (* Push *) apply (push_cons m a v R Hv Ow); auto. discriminate.
  - (* PushInit *) apply (push_cons m a v R Hv Ow); auto. discriminate.
  - (* PushSliceClone *) apply (push_slice_cons m a v R Hv Ow); auto. discriminate.
  - (* PushSliceCloneInit *) apply (push_slice_cons m a v R Hv Ow); auto. discriminate.
  - (* NextItemInit *) apply grant_one_cons.
  - (* PeekAvail *) apply grant_cons; reflexivity.
  - (* Pop *) apply (pop_cons m a v R Hv Ow); auto.
  - (* PopMove *) apply (pop_cons m a v R Hv Ow); auto.
  - (* CloneItem *) apply (extract_item_cons m a v R Hv Ow G).
  - (* CloneSlice *) apply (extract_slice_cons m a v R Hv Ow n G).
  - (* Reset *)
    destruct k; try (apply conserves_same; reflexivity); apply conserves_if; intros; apply conserves_same; reflexivity.
  - (* DropIter *) apply (drop_iter_cons m a v R Hv Ow k G).
  - (* DropBuf *)
    apply andb_prop in G as [G _]. apply andb_prop in G as [_ G]. apply negb_true_iff in G.
    unfold conserves, rete, ev, live. simpl. rewrite Ow, G. rewrite outs_release, ins_release by auto. unfold cnt. simpl. lia.
Qed.
Print Assumptions conservation.

Fixpoint tot_in (v : N) (xs : list (out * list lev)) : nat :=
  match xs with [] => 0 | (_, e) :: r => ins v e + tot_in v r end.
Fixpoint tot_out (v : N) (h : list op) (xs : list (out * list lev)) : nat :=
  match h, xs with
  | o :: hr, (_, e) :: r => outs v e + (if handed o then ins v e else 0) + tot_out v hr r
  | _, _ => 0
  end.

(** along every contract-respecting history over owned items: what the buffer still owns plus everything that
    left it (destroyed, handed out, lost) equals what it owned at the start plus everything that entered *)
Theorem history_conservation v h : v <> 0%N -> forall m a, Rel m a -> owned m = true -> forallb vals_ok h = true ->
  snd (srun a h) = true ->
  cnt v (live (fst (run m h))) + tot_out v h (snd (run m h)) = cnt v (live m) + tot_in v (snd (run m h)).
Proof.
  intros Hv. induction h as [|o r IH]; intros m a R Ow VO OK; simpl in *; [lia|].
  apply andb_prop in VO as [VO1 VO2].
  destruct (sstep a o) as [a1 y] eqn:Es. destruct (srun a1 r) as [[a2 ys] okr] eqn:Er. simpl in OK.
  apply andb_prop in OK as [Ho Hr].
  pose proof (conservation m a o v R Ho Ow VO1 Hv) as Cv.
  pose proof (step_refines m a o R Ho) as [_ R1]. rewrite Es in R1. simpl in R1.
  (* the next state is over owned items too: the Spec never changes that *)
  assert (Os : owned (fst (step m o)) = true).
  { rewrite (r_owned _ _ R1), <- Ow, (r_owned _ _ R). pose proof (sstep_owned a o) as H. rewrite Es in H. exact H. }
  destruct (step m o) as [m1 [x e]] eqn:Em. simpl in *.
  specialize (IH m1 a1 R1 Os VO2). rewrite Er in IH. specialize (IH Hr).
  destruct (run m1 r) as [m2 xs]. simpl in *. unfold conserves in Cv. simpl in Cv. lia.
Qed.
Print Assumptions history_conservation.

(** a released buffer owns nothing: everything that entered has left *)
Corollary released_balance v h m a : v <> 0%N -> Rel m a -> owned m = true -> forallb vals_ok h = true ->
  snd (srun a h) = true -> freed (fst (run m h)) = true ->
  tot_out v h (snd (run m h)) = cnt v (live m) + tot_in v (snd (run m h)).
Proof.
  intros Hv R Ow VO OK F. pose proof (history_conservation v h Hv m a R Ow VO OK) as H.
  unfold live in H at 1. rewrite F in H. unfold cnt in H at 1. simpl in H. exact H.
Qed.

Definition zero_ev (e : lev) : bool := match e with LZeroDrop | LZeroRead | LLost _ => true | _ => false end.

(** the *_init stores never drop an empty cell and never lose an occupied one, whatever the cell holds *)
Theorem init_store_safe old : existsb zero_ev (store_ev SInit old) = false.
Proof. unfold store_ev. destruct (isz old); reflexivity. Qed.

Theorem init_stores_safe olds : existsb zero_ev (store_evs SInit olds) = false.
Proof. induction olds as [|o r IH]; cbn [store_evs]; auto. rewrite existsb_app, IH. rewrite (init_store_safe o). reflexivity. Qed.

(** releasing a buffer skips empty cells and drops every occupied one exactly once *)
Theorem release_skips_empty l : existsb zero_ev (release_evs l) = false /\
  forall v, v <> 0%N -> outs v (release_evs l) = cnt v l.
Proof.
  split; [rewrite release_store; apply init_stores_safe | intros; apply outs_release; auto].
Qed.

(** plain stores onto occupied cells drop the old value exactly once and nothing else *)
Theorem assign_occupied old : isz old = false -> store_ev SAssign old = [LDrop old].
Proof. unfold store_ev. intros ->. reflexivity. Qed.

(** the state after a push does not depend on how the old contents were treated: an [*_init] push onto an
    empty cell and a plain push onto an occupied one leave the same kind of state - there is no hidden
    "was zeroed" bit, only contents *)
Theorem push_state_mode_independent md1 md2 x m : fst (push md1 x m) = fst (push md2 x m).
Proof. unfold push. destruct (check P 1 m) as [g m1]. destruct g; reflexivity. Qed.

Theorem push_slice_state_mode_independent md1 md2 cl vs m : fst (push_slice md1 cl vs m) = fst (push_slice md2 cl vs m).
Proof.
  unfold push_slice. destruct (check P (length vs) m) as [g m1]. destruct g; [|reflexivity].
  destruct (rd m1 (ix (it_of P m1)) (length vs)). destruct (if cl then clones m1 vs else (vs, m1)). reflexivity.
Qed.

(** pop_move leaves the cell empty; the moved value is accounted as handed out, an empty cell as a zero read *)
Theorem pop_move_events m : forall s x e, pop true m = (s, (OVal x, e)) -> owned m = true ->
  e = (if isz x then [LZeroRead] else [LGive x]).
Proof.
  unfold pop. intros s x e. destruct (check_set_ca C 1 m) as [c E]. destruct (check C 1 m) as [[] m1]; [|discriminate].
  simpl in E. subst m1. unfold rete, ev. intros H Ow. inversion H; subst. rewrite owned_advance. simpl. rewrite Ow. reflexivity.
Qed.
