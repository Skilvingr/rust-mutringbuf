(** * C13 (forms of an operation): plain = detached-then-attached = async-polled.

    Part 1.  For an operation [o] that exists both on a plain iterator and on a detached one ([det_form]), the history
    [Detach K; o; Attach K] gives [o] the output and ledger events of the plain [o] and ends in the same state: the whole
    [mstate] on the Model (no contract needed), the whole [pipe] on the Spec (under the contract); likewise for a block
    of such operations and for the attached / detached [reset_index].  On both sides what [Attach K] does to a detached
    state ([m_attach], [s_attach]) commutes with every [det_form] step, and such a step leaves the iterator detached;
    so attaching after a block is attaching before it, and attaching right after detaching changes nothing.

    Part 2.  Polling the future of an operation once ([APoll]) is the synchronous attempt: Ready with its output,
    events and state when it succeeds; Pending, no event, and the state the refused attempt leaves when it does not. *)
From Coq Require Import List Arith NArith Bool Lia.
Import ListNotations.
Require Import MRB.Base.Ring MRB.Base.ListAux MRB.Model.Types MRB.Model.Seq MRB.Spec.Pipe MRB.Model.Async.
Require Import MRB.Proofs.Rel MRB.Proofs.TapeFacts MRB.Proofs.Refine MRB.Proofs.AsyncFacts.
Require MRB.Proofs.SliceItem.

Definition det_form (K : stage) (o : op) : bool :=
  match o with
  | Avail j | Advance j _ | GetOne j | GetExact j _ | GetAvail j | GetMult j _
  | Poke j _ _ | PokeInit j _ _ | Edit j _ _ => stage_eqb j K
  | _ => false
  end.

Lemma det_form_cases K (Q : op -> Prop) :
  Q (Avail K) -> (forall n, Q (Advance K n)) -> Q (GetOne K) -> (forall n, Q (GetExact K n)) -> Q (GetAvail K) ->
  (forall r, Q (GetMult K r)) -> (forall off v, Q (Poke K off v)) -> (forall off v, Q (PokeInit K off v)) ->
  (forall off d, Q (Edit K off d)) -> forall o, det_form K o = true -> Q o.
Proof.
  intros ? ? ? ? ? ? ? ? ? o. destruct o; try discriminate; cbn [det_form];
    (destruct (stage_eqb_spec k K) as [->|]; [auto | discriminate]).
Qed.

Lemma tset_tset {A} k (x y : A) t : tset k x (tset k y t) = tset k x t.
Proof. destruct k; reflexivity. Qed.

(** what [Attach K] does to a detached state *)
Definition m_attach (K : stage) (m : mstate) : mstate := set_det K false (set_pub K (ix (it_of K m)) m).
Definition mlift (K : stage) (r : res) : res := (m_attach K (fst r), snd r).

(** the state AFTER the refresh, as a [check] that has to look leaves it (stale was the remembered availability) *)
Definition stale (k : stage) (m : mstate) : mstate := set_ca k (fresh k m) m.

Lemma refresh_is k m : refresh k m = (stale k m, fresh k m). Proof. reflexivity. Qed.
Lemma check_is k n m : check k n m = if n <=? ca (it_of k m) then (true, m) else (n <=? fresh k m, stale k m).
Proof. reflexivity. Qed.

(** [m_attach K] writes the published index and the detached flag of [K]: a [det_form] operation on [K] reads
    neither, except that [advance] publishes when the flag is clear *)
Lemma usable_att K m : usable K (m_attach K m) = usable K m. Proof. destruct K; reflexivity. Qed.
Lemma plain_att K m : plain (m_attach K m) = plain m. Proof. reflexivity. Qed.
Lemma fresh_att K m : fresh K (m_attach K m) = fresh K m. Proof. destruct K; reflexivity. Qed.
Lemma ca_att K m : ca (it_of K (m_attach K m)) = ca (it_of K m). Proof. destruct K; reflexivity. Qed.
Lemma ix_att K m : ix (it_of K (m_attach K m)) = ix (it_of K m). Proof. destruct K; reflexivity. Qed.
Lemma rd_att K m i n : rd (m_attach K m) i n = rd m i n. Proof. reflexivity. Qed.
Lemma slot_att K m i : slot (m_attach K m) i = slot m i. Proof. reflexivity. Qed.
Lemma stale_att K m : stale K (m_attach K m) = m_attach K (stale K m). Proof. destruct K; reflexivity. Qed.

Lemma det_set_ix_ca j K i c m : detached j (set_ix_ca K i c m) = detached j m. Proof. destruct j, K; reflexivity. Qed.
Lemma det_stale K m : detached K (stale K m) = detached K m. Proof. apply (det_set_ix_ca K K). Qed.

Definition att_ok (K : stage) (m : mstate) (f : mstate -> res) : Prop :=
  f (m_attach K m) = mlift K (f m) /\ detached K (fst (f m)) = detached K m.

Lemma check_att K n m :
  check K n (m_attach K m) = (fst (check K n m), m_attach K (snd (check K n m))) /\
  detached K (snd (check K n m)) = detached K m.
Proof.
  rewrite !check_is, ca_att, fresh_att, stale_att.
  destruct (n <=? ca (it_of K m)); split; try reflexivity. apply det_stale.
Qed.

Lemma grant_att K n m : att_ok K m (grant K n).
Proof.
  unfold att_ok, grant, mlift. destruct (check_att K n m) as [-> D]. destruct (check K n m) as [[] m1]; cbn [fst snd] in *; [|auto].
  rewrite ix_att, rd_att. destruct (rd m1 (ix (it_of K m1)) n). auto.
Qed.

Lemma grant_one_att K m : att_ok K m (grant_one K).
Proof.
  unfold att_ok, grant_one, mlift. destruct (check_att K 1 m) as [-> D]. destruct (check K 1 m) as [[] m1]; cbn [fst snd] in *; [|auto].
  rewrite ix_att, slot_att. auto.
Qed.

Lemma advance_att K n m : det (it_of K m) = true ->
  advance K n (m_attach K m) = m_attach K (advance K n m) /\ detached K (advance K n m) = detached K m.
Proof. intros D. unfold advance. rewrite D. destruct K; split; reflexivity. Qed.

Lemma poke_att md K off v m : att_ok K m (poke md K off v).
Proof. destruct K; split; reflexivity. Qed.

Lemma edit_att K off d m : att_ok K m (edit K off d).
Proof. destruct K; split; reflexivity. Qed.

Lemma attached_parts K m : attached K m = true -> usable K m = true /\ det (it_of K m) = false.
Proof. intros H. apply andb_prop in H as [U D]. apply negb_true_iff in D. auto. Qed.

Lemma step_attach K o m : detached K m = true -> det_form K o = true -> att_ok K m (fun m => step m o).
Proof.
  intros Dm. destruct (andb_prop _ _ Dm) as [U D]. revert o.
  apply det_form_cases; intros; unfold att_ok; cbn [step]; rewrite usable_att, ?plain_att, U, ?refresh_is, ?fresh_att, ?stale_att.
  - split; [reflexivity | apply det_stale].
  - destruct (advance_att K n m D) as [-> E]. auto.
  - apply grant_one_att.
  - apply grant_att.
  - destruct (fresh K m); [split; [reflexivity | apply det_stale]|].
    rewrite <- (det_stale K m). apply grant_att.
  - destruct r; [split; [reflexivity | apply det_stale]|].
    destruct (fresh K m - fresh K m mod S r); [split; [reflexivity | apply det_stale]|].
    rewrite <- (det_stale K m). apply grant_att.
  - apply poke_att.
  - apply poke_att.
  - cbn [andb]. destruct (plain m); [apply edit_att | auto].
Qed.

Lemma run_app h1 : forall m h2,
  run m (h1 ++ h2) = (fst (run (fst (run m h1)) h2), snd (run m h1) ++ snd (run (fst (run m h1)) h2)).
Proof.
  induction h1 as [|o r IH]; intros m h2.
  - cbn [run app fst snd]. destruct (run m h2); reflexivity.
  - rewrite <- app_comm_cons, !run_cons, IH. reflexivity.
Qed.

Lemma run_attach K os : Forall (fun o => det_form K o = true) os -> forall m, detached K m = true ->
  run (m_attach K m) os = (m_attach K (fst (run m os)), snd (run m os)) /\ detached K (fst (run m os)) = true.
Proof.
  induction 1 as [|o r Fo Fr IH]; intros m Dm; [auto|].
  rewrite !run_cons. destruct (step_attach K o m Dm Fo) as [-> D1]. rewrite Dm in D1. unfold mlift. cbn [fst snd].
  destruct (IH _ D1) as [-> D2]. auto.
Qed.

(** true of every reachable state ([rel_msynced]) *)
Definition msynced (K : stage) (m : mstate) : Prop := tget K (pub m) = ix (it_of K m).

Lemma attach_detach K m : attached K m = true -> msynced K m -> m_attach K (set_det K true m) = m.
Proof.
  intros Am S. destruct (attached_parts K m Am) as [_ D]. unfold msynced in S.
  destruct m as [len sl [pp pw pc] fl [[ip cp dp hp] [iw cw dw hw] [ic cc dc hc]] hW hp' ow fr ni].
  destruct K; cbn in *; subst; reflexivity.
Qed.

Lemma detached_after_detach K m : attached K m = true -> detached K (set_det K true m) = true.
Proof.
  intros Am. destruct (attached_parts K m Am) as [U _]. unfold detached.
  replace (usable K (set_det K true m)) with (usable K m) by (destruct K; reflexivity). rewrite U. destruct K; reflexivity.
Qed.

Theorem model_detached_block K os m :
  attached K m = true -> msynced K m -> Forall (fun o => det_form K o = true) os ->
  run m ([Detach K] ++ os ++ [Attach K]) =
  (fst (run m os), (OUnit, []) :: snd (run m os) ++ [(OUnit, [])]).
Proof.
  intros Am S F. cbn [app run step]. rewrite Am. cbn [ret].
  destruct (run_attach K os F _ (detached_after_detach K m Am)) as [E D1].
  rewrite (attach_detach K m Am S) in E.
  rewrite run_app. cbn [run step]. rewrite D1. cbn [ret fst snd].
  rewrite E. reflexivity.
Qed.

Theorem model_detached_form K o m :
  attached K m = true -> msynced K m -> det_form K o = true ->
  run m [Detach K; o; Attach K] = (fst (step m o), [(OUnit, []); snd (step m o); (OUnit, [])]) /\
  run m [o] = (fst (step m o), [snd (step m o)]).
Proof.
  intros Am S F. pose proof (run_cons m o []) as P1. split; [|exact P1].
  pose proof (model_detached_block K [o] m Am S (Forall_cons _ F (Forall_nil _))) as H.
  rewrite P1 in H. exact H.
Qed.

Theorem model_reset_form K m : attached K m = true -> K <> P ->
  run m [Detach K; DReset K; Attach K] = (fst (step m (Reset K)), [(OUnit, []); snd (step m (Reset K)); (OUnit, [])]).
Proof.
  intros Am NP. pose proof (detached_after_detach K m Am) as Dd.
  cbn [run step]. rewrite Am. cbn [ret]. rewrite Dd. cbn [ret].
  rewrite det_set_ix_ca, Dd. cbn [ret fst snd].
  destruct (attached_parts K m Am) as [_ D].
  destruct m as [len sl [pp pw pc] fl [[ip cp dp hp] [iw cw dw hw] [ic cc dc hc]] hW hp' ow fr ni].
  destruct K; [congruence| |]; cbn in *; subst; reflexivity.
Qed.

(** a new position [q] copies position [q - len]: the write at [p] is seen by none of the [n] new ones *)
Lemma extend_upd len n p v : forall t, len <= length t -> p < length t -> n <= p + len - length t ->
  extend len n (upd p v t) = upd p v (extend len n t).
Proof.
  induction n as [|n IH]; intros t Hl Hp Hn; cbn [extend]; auto.
  rewrite upd_length. rewrite (nth_upd_neq 0%N) by lia. rewrite <- upd_app by lia.
  apply IH; rewrite app_length; cbn [length]; lia.
Qed.

Lemma pipe_ext a b : slen a = slen b -> tape a = tape b -> ppos a = ppos b -> lpos a = lpos b -> sdet a = sdet b ->
  shere a = shere b -> sflag a = sflag b -> shasW a = shasW b -> sheap a = sheap b -> sowned a = sowned b ->
  sfreed a = sfreed b -> snid a = snid b -> a = b.
Proof. destruct a, b; cbn; intros; subst; reflexivity. Qed.

(** what [Attach K] does to a detached Spec state *)
Definition s_attach (K : stage) (a : pipe) : pipe := a_set_det K false (a_publish K (tget K (lpos a)) a).

(** the ring window and everything the consumer may be granted are on the tape (true of every reachable state,
    [rel_tape_covers]) *)
Definition tape_covers (a : pipe) : Prop :=
  tC (ppos a) + slen a <= length (tape a) /\ a_succ C a <= length (tape a).

(** an attached iterator's local position is its published one (invariant I4 of [Rel]) *)
Definition synced (K : stage) (a : pipe) : Prop := tget K (lpos a) = tget K (ppos a).

(** [s_attach K] writes the published position and the detached flag of [K] - and, for the consumer, grows the tape *)
Lemma s_usable_att K a : a_usable K (s_attach K a) = a_usable K a. Proof. destruct K; reflexivity. Qed.
Lemma s_plain_att K a : a_plain (s_attach K a) = a_plain a. Proof. reflexivity. Qed.
Lemma s_avail_att K a : a_avail K (s_attach K a) = a_avail K a. Proof. destruct K; reflexivity. Qed.
Lemma s_lpos_att K a : lpos (s_attach K a) = lpos a. Proof. reflexivity. Qed.
Lemma s_slen_att K a : slen (s_attach K a) = slen a. Proof. reflexivity. Qed.

Lemma granted_on_tape a n : tape_covers a -> 0 < n <= a_avail C a -> tC (lpos a) + n <= length (tape a).
Proof. intros [_ T] H. unfold a_avail in H. cbn [tget] in H. lia. Qed.

Lemma s_window_att K n a : tape_covers a -> n <= a_avail K a -> a_window K n (s_attach K a) = a_window K n a.
Proof.
  intros T Hn. destruct K; [reflexivity|reflexivity|]. destruct n; [reflexivity|].
  unfold a_window. cbn [s_attach a_set_det a_publish lpos slen tape tget].
  rewrite sub_extend by (apply granted_on_tape; auto; lia). reflexivity.
Qed.

Lemma s_cell_att K p a : tape_covers a -> tget K (lpos a) <= p < tget K (lpos a) + a_avail K a ->
  a_cell p (s_attach K a) = a_cell p a.
Proof.
  intros T Hp. destruct K; [reflexivity|reflexivity|]. apply extend_old.
  pose proof (granted_on_tape a (p - tC (lpos a) + 1) T). cbn [tget] in Hp. lia.
Qed.

Lemma s_advance_att K n a : tget K (sdet a) = true -> a_advance K n (s_attach K a) = s_attach K (a_advance K n a).
Proof.
  intros D. unfold a_advance. rewrite D.
  replace (tget K (sdet (s_attach K a))) with false by (destruct K; reflexivity).
  apply pipe_ext; try reflexivity.
  - (* the tape grows in two steps or in one *)
    destruct K; try reflexivity. cbn [s_attach a_publish a_set_lpos a_set_det tape slen lpos tget tset tC].
    rewrite extend_length, SliceItem.extend_extend. f_equal. lia.
  - cbn [s_attach a_publish a_set_lpos a_set_det ppos lpos]. rewrite tset_tset, tget_tset_same. reflexivity.
Qed.

Lemma s_write_att K p v a : a_detached K a = true -> tape_covers a ->
  tget K (lpos a) <= p < tget K (lpos a) + a_avail K a ->
  a_set_tape (upd p v (tape (s_attach K a))) (s_attach K a) = s_attach K (a_set_tape (upd p v (tape a)) a) /\
  a_detached K (a_set_tape (upd p v (tape a)) a) = true /\ tape_covers (a_set_tape (upd p v (tape a)) a).
Proof.
  intros Da T Hp. split; [|split; [exact Da|]].
  - apply pipe_ext; try reflexivity. destruct K; try reflexivity.
    pose proof (granted_on_tape a (p - tC (lpos a) + 1) T). destruct T as [T1 _]. cbn [tget] in Hp.
    cbn [s_attach a_publish a_set_det a_set_tape tape slen lpos tget]. rewrite upd_length. symmetry. apply extend_upd; lia.
  - destruct T. split; cbn [a_set_tape tape ppos slen]; rewrite upd_length; assumption.
Qed.

(** commuting with attach, and what the induction along a block needs besides *)
Definition s_att_ok (K : stage) (a : pipe) (f : pipe -> ares) : Prop :=
  f (s_attach K a) = (s_attach K (fst (f a)), snd (f a)) /\ a_detached K (fst (f a)) = true /\ tape_covers (fst (f a)).

Lemma s_ret_att K a : a_detached K a = true -> tape_covers a -> forall x, s_att_ok K a (fun a => a_ret a x).
Proof. intros Da T x. exact (conj eq_refl (conj Da T)). Qed.

Lemma s_poke_att md K off v a : a_detached K a = true -> tape_covers a -> off < a_avail K a ->
  s_att_ok K a (a_poke md K off v).
Proof.
  intros Da T H. unfold s_att_ok, a_poke, a_rete. rewrite s_lpos_att, s_cell_att by (auto; lia).
  destruct (s_write_att K (tget K (lpos a) + off) v a Da T ltac:(lia)) as (-> & W). exact (conj eq_refl W).
Qed.

Lemma s_edit_att K off d a : a_detached K a = true -> tape_covers a -> off < a_avail K a ->
  s_att_ok K a (a_edit K off d).
Proof.
  intros Da T H. unfold s_att_ok, a_edit, a_ret. rewrite s_lpos_att, s_cell_att by (auto; lia).
  destruct (s_write_att K (tget K (lpos a) + off) (a_cell (tget K (lpos a) + off) a + d)%N a Da T ltac:(lia)) as (-> & W).
  exact (conj eq_refl W).
Qed.

Lemma s_ok_att K o a : det_form K o = true -> ok_op (s_attach K a) o = ok_op a o.
Proof. revert o. apply det_form_cases; intros; cbn [ok_op]; rewrite ?s_avail_att; reflexivity. Qed.

Lemma sstep_attach K o a : a_detached K a = true -> tape_covers a -> det_form K o = true -> ok_op a o = true ->
  s_att_ok K a (fun a => sstep a o).
Proof.
  intros Da T. destruct (andb_prop _ _ Da) as [U D]. pose proof (s_ret_att K a Da T) as Read.
  revert o. refine (det_form_cases K _ _ _ _ _ _ _ _ _ _); intros *; intros OK; unfold s_att_ok; cbn [sstep ok_op] in *;
    rewrite s_usable_att, ?s_plain_att, U, ?s_avail_att.
  - apply Read.
  - rewrite s_advance_att by exact D. split; [reflexivity|]. cbn [a_ret fst]. unfold a_advance. rewrite D.
    split; [rewrite <- Da; destruct K; reflexivity | exact T].
  - unfold a_grant_one. rewrite s_avail_att, s_lpos_att, s_slen_att.
    destruct (1 <=? a_avail K a) eqn:E; [apply Nat.leb_le in E; rewrite s_cell_att by (auto; lia)|]; apply Read.
  - unfold a_grant. rewrite s_avail_att.
    destruct (n <=? a_avail K a) eqn:E; [apply Nat.leb_le in E; rewrite s_window_att by auto|]; apply Read.
  - destruct (a_avail K a) eqn:E; [|rewrite s_window_att by (auto; lia)]; apply Read.
  - destruct r; [apply Read|].
    destruct (a_avail K a - a_avail K a mod S r) eqn:E; [|rewrite s_window_att by (auto; lia)]; apply Read.
  - apply Nat.ltb_lt in OK. apply s_poke_att; assumption.
  - apply Nat.ltb_lt in OK. apply s_poke_att; assumption.
  - apply Nat.ltb_lt in OK. cbn [andb]. destruct (a_plain a); [apply s_edit_att; assumption | apply Read].
Qed.

Lemma srun_attach K os : Forall (fun o => det_form K o = true) os -> forall a,
  a_detached K a = true -> tape_covers a ->
  snd (srun (s_attach K a) os) = snd (srun a os) /\
  (snd (srun a os) = true ->
   srun (s_attach K a) os = (s_attach K (fst (fst (srun a os))), snd (fst (srun a os)), true) /\
   a_detached K (fst (fst (srun a os))) = true).
Proof.
  induction 1 as [|o r Fo Fr IH]; intros a Da T; [auto|].
  rewrite !srun_cons, (s_ok_att K o a Fo). cbn [fst snd]. destruct (ok_op a o) eqn:Ok; [|split; [reflexivity | discriminate]].
  destruct (sstep_attach K o a Da T Fo Ok) as (-> & D1 & T1). cbn [fst snd]. destruct (IH _ D1 T1) as [-> H].
  split; [reflexivity|]. intros OK. destruct (H OK) as [-> D2]. rewrite OK. auto.
Qed.

Lemma srun_app h1 : forall a h2,
  srun a (h1 ++ h2) =
  (fst (fst (srun (fst (fst (srun a h1))) h2)),
   snd (fst (srun a h1)) ++ snd (fst (srun (fst (fst (srun a h1))) h2)),
   snd (srun a h1) && snd (srun (fst (fst (srun a h1))) h2)).
Proof.
  induction h1 as [|o r IH]; intros a h2.
  - cbn [srun app fst snd]. destruct (srun a h2) as [[a2 ys] ok]. reflexivity.
  - rewrite <- app_comm_cons, !srun_cons, IH. cbn [fst snd]. rewrite andb_assoc. reflexivity.
Qed.

Lemma s_attach_detach K a : a_attached K a = true -> synced K a -> tape_covers a ->
  s_attach K (a_set_det K true a) = a.
Proof.
  intros Aa S [T1 _]. unfold synced in S. apply pipe_ext; try reflexivity.
  - destruct K; try reflexivity. cbn [s_attach a_publish a_set_det tape slen lpos tget] in *.
    replace (tC (lpos a) + slen a - length (tape a)) with 0 by lia. reflexivity.
  - cbn [s_attach a_publish a_set_det ppos lpos]. rewrite S. apply tset_tget.
  - cbn [s_attach a_publish a_set_det sdet]. rewrite tset_tset, <- (attached_det _ _ Aa). apply tset_tget.
Qed.

Lemma s_detached_after_detach K a : a_attached K a = true -> a_detached K (a_set_det K true a) = true.
Proof.
  intros Aa. pose proof (attached_usable _ _ Aa) as U. unfold a_detached.
  replace (a_usable K (a_set_det K true a)) with (a_usable K a) by (destruct K; reflexivity).
  rewrite U. destruct K; reflexivity.
Qed.

Theorem spec_detached_block K os a :
  a_attached K a = true -> synced K a -> tape_covers a ->
  Forall (fun o => det_form K o = true) os -> snd (srun a os) = true ->
  srun a ([Detach K] ++ os ++ [Attach K]) =
  (fst (fst (srun a os)), (OUnit, []) :: snd (fst (srun a os)) ++ [(OUnit, [])], true).
Proof.
  intros Aa S T F OK. cbn [app srun sstep ok_op]. rewrite Aa. cbn [a_ret].
  destruct (srun_attach K os F _ (s_detached_after_detach K a Aa) T) as [Eok H].
  rewrite (s_attach_detach K a Aa S T), OK in *. destruct (H (eq_sym Eok)) as [E D1].
  rewrite srun_app. cbn [srun sstep ok_op]. rewrite D1. cbn [a_ret fst snd].
  rewrite <- Eok, E. reflexivity.
Qed.

Theorem spec_detached_form K o a :
  a_attached K a = true -> synced K a -> tape_covers a -> det_form K o = true -> ok_op a o = true ->
  srun a [Detach K; o; Attach K] = (fst (sstep a o), [(OUnit, []); snd (sstep a o); (OUnit, [])], true) /\
  srun a [o] = (fst (sstep a o), [snd (sstep a o)], true).
Proof.
  intros Aa S T F OK. pose proof (srun_cons a o []) as P1. rewrite OK in P1. split; [|exact P1].
  pose proof (spec_detached_block K [o] a Aa S T (Forall_cons _ F (Forall_nil _))) as H.
  rewrite P1 in H. exact (H eq_refl).
Qed.

Lemma locate_succ K a : tget K (ppos a) <= a_succ K a < tget K (ppos a) + slen a ->
  a_locate K (a_succ K a mod slen a) a = a_succ K a.
Proof. intros Hb. unfold a_locate. rewrite dist_mod by lia. lia. Qed.

Lemma limit_succ K a : K <> P -> a_limit K a = a_succ K a.
Proof. destruct K; [congruence| |]; reflexivity. Qed.

Theorem spec_reset_form K a : a_attached K a = true -> K <> P -> 0 < slen a ->
  tget K (ppos a) <= a_succ K a < tget K (ppos a) + slen a ->
  srun a [Detach K; DReset K; Attach K] =
  (fst (sstep a (Reset K)), [(OUnit, []); snd (sstep a (Reset K)); (OUnit, [])], true).
Proof.
  intros Aa NP Hl Hb.
  pose proof (s_detached_after_detach K a Aa) as Dd. pose proof (attached_det _ _ Aa) as D.
  assert (R1 : sstep a (Reset K) = a_ret (a_publish K (a_succ K a) (a_set_lpos K (a_succ K a) a)) OUnit).
  { destruct K; [congruence| |]; cbn [sstep]; rewrite Aa; reflexivity. }
  rewrite R1. cbn [srun sstep ok_op a_ret fst snd]. rewrite Aa. cbn [a_ret]. rewrite Dd. cbn [a_ret].
  (* detaching changes nothing [a_locate], [a_succ] or [a_limit] read *)
  rewrite (locate_succ K (a_set_det K true a) Hb), (limit_succ K _ NP), Nat.leb_refl.
  replace (a_detached K (a_set_lpos K _ _)) with true by (rewrite <- Dd; destruct K; reflexivity).
  cbn [a_ret andb]. f_equal. f_equal.
  apply pipe_ext; try reflexivity.
  - destruct K; reflexivity.
  - destruct K; reflexivity.
  - cbn [a_set_det a_publish a_set_lpos sdet]. rewrite tset_tset, <- D. apply tset_tget.
Qed.

Lemma rel_synced m a K : Rel m a -> a_attached K a = true -> synced K a.
Proof. intros R Aa. apply (r_att _ _ R). apply attached_det. exact Aa. Qed.

Lemma rel_tape_covers m a : Rel m a -> tape_covers a.
Proof.
  intros R. pose proof (r_tape _ _ R) as Ht. pose proof (r_oS _ _ R) as HS. pose proof (r_oP _ _ R) as HP.
  pose proof (r_pos _ _ R) as Hl. unfold tape_covers. lia.
Qed.

Lemma rel_msynced m a K : Rel m a -> attached K m = true -> msynced K m.
Proof.
  intros R Am. rewrite (attached_eq _ _ _ R) in Am.
  pose proof (attached_usable _ _ Am) as U. pose proof (usable_here _ _ U) as H.
  destruct (r_it _ _ R K H) as (_ & Hix & _).
  unfold msynced. rewrite Hix, (r_pub _ _ R K), (r_att _ _ R K (attached_det _ _ Am)). reflexivity.
Qed.

Lemma rel_reset_bounds m a K : Rel m a -> a_usable K a = true -> K <> P ->
  0 < slen a /\ tget K (ppos a) <= a_succ K a < tget K (ppos a) + slen a.
Proof.
  intros R U NP. pose proof (r_pos _ _ R) as Hl. pose proof (r_oC _ _ R) as HC. pose proof (r_oP _ _ R) as HP.
  pose proof (r_oS _ _ R) as HS. split; [exact Hl|].
  destruct K; [congruence| |]; cbn [tget].
  - pose proof (r_oW _ _ R (usable_W _ U)) as HW. unfold a_succ in *. rewrite (usable_W _ U) in *. lia.
  - lia.
Qed.

(** C13, detached form, for reachable states *)
Theorem C13_detached_block m a K os :
  Rel m a -> attached K m = true -> Forall (fun o => det_form K o = true) os ->
  (* Model: no contract needed *)
  run m ([Detach K] ++ os ++ [Attach K]) = (fst (run m os), (OUnit, []) :: snd (run m os) ++ [(OUnit, [])]) /\
  (* Spec: under the contract of the plain block *)
  (snd (srun a os) = true ->
   srun a ([Detach K] ++ os ++ [Attach K]) =
   (fst (fst (srun a os)), (OUnit, []) :: snd (fst (srun a os)) ++ [(OUnit, [])], true)).
Proof.
  intros R Am F. split.
  - apply model_detached_block; auto. eapply rel_msynced; eauto.
  - intros OK. rewrite (attached_eq _ _ _ R) in Am.
    apply spec_detached_block; auto; [eapply rel_synced | eapply rel_tape_covers]; eauto.
Qed.

Theorem C13_detached_form m a K o :
  Rel m a -> attached K m = true -> det_form K o = true ->
  run m [Detach K; o; Attach K] = (fst (step m o), [(OUnit, []); snd (step m o); (OUnit, [])]) /\
  (ok_op a o = true ->
   srun a [Detach K; o; Attach K] = (fst (sstep a o), [(OUnit, []); snd (sstep a o); (OUnit, [])], true)).
Proof.
  intros R Am F. split.
  - apply model_detached_form; auto. eapply rel_msynced; eauto.
  - intros OK. rewrite (attached_eq _ _ _ R) in Am.
    apply spec_detached_form; auto; [eapply rel_synced | eapply rel_tape_covers]; eauto.
Qed.

Theorem C13_reset_form m a K :
  Rel m a -> attached K m = true -> K <> P ->
  run m [Detach K; DReset K; Attach K] = (fst (step m (Reset K)), [(OUnit, []); snd (step m (Reset K)); (OUnit, [])]) /\
  srun a [Detach K; DReset K; Attach K] = (fst (sstep a (Reset K)), [(OUnit, []); snd (sstep a (Reset K)); (OUnit, [])], true).
Proof.
  intros R Am NP. split; [apply model_reset_form; auto|].
  rewrite (attached_eq _ _ _ R) in Am.
  destruct (rel_reset_bounds m a K R (attached_usable _ _ Am) NP) as [Hl Hb].
  apply spec_reset_form; auto.
Qed.

Lemma usable_stale j k m : usable j (stale k m) = usable j m. Proof. destruct j, k; reflexivity. Qed.

Lemma refresh_stale k m : refresh k (stale k m) = (stale k m, fresh k m).
Proof. rewrite refresh_is. unfold stale. rewrite fresh_set_ca, set_ca_twice. reflexivity. Qed.

Lemma check_refused k n m : fst (check k n m) = false ->
  snd (check k n m) = stale k m /\ check k n (stale k m) = (false, stale k m).
Proof.
  rewrite !check_is. unfold stale. rewrite it_set_ca, fresh_set_ca, set_ca_twice.
  destruct (n <=? ca (it_of k m)); [discriminate|]. cbn [fst snd ca]. intros ->. auto.
Qed.

Lemma check_stale_ok k n m : n <= fresh k m -> check k n (stale k m) = (true, stale k m).
Proof. intros H. rewrite check_is. unfold stale. rewrite it_set_ca. apply Nat.leb_le in H. cbn [ca]. rewrite H. reflexivity. Qed.

Definition refusal_refreshes (k : stage) (f : mstate -> res) : Prop := forall m,
  refused (fst (snd (f m))) = true -> fst (f m) = stale k m /\ snd (snd (f m)) = [] /\ f (stale k m) = f m.

Lemma guarded_refused k n work no :
  (forall m1, refused (fst (snd (work m1))) = false) -> refusal_refreshes k (guarded k n work no).
Proof.
  intros W m. unfold guarded. pose proof (check_refused k n m) as C. destruct (check k n m) as [[] m1]; cbn [fst snd] in *.
  - rewrite W. discriminate.
  - destruct (C eq_refl) as [-> ->]. auto.
Qed.

Lemma grant_stale_ok k n m : n <= fresh k m -> refused (fst (snd (grant k n (stale k m)))) = false.
Proof. intros H. unfold grant. rewrite (check_stale_ok k n m H). open_lets. reflexivity. Qed.

Definition gated (g : mstate -> bool) (f : mstate -> res) (m : mstate) : res := if g m then f m else bad m.

Lemma gated_refused k g f : (forall m, g (stale k m) = g m) -> refusal_refreshes k f -> refusal_refreshes k (gated g f).
Proof. intros G H m. unfold gated. rewrite G. destruct (g m); [apply H | discriminate]. Qed.

(** [step] on a future's operation is [gated] by flags the refresh leaves alone ([usable_stale]; by computation where
    the stage is known).  Behind the test most are [guarded] ([PeekAvail] too: its grant is, in the state its look
    leaves, which looking again leaves as it is); two look first and may refuse without a [check]. *)
Lemma step_refused o k : future_of o = Some k -> refusal_refreshes k (fun m => step m o).
Proof.
  intros Fu. destruct o; try discriminate; cbn [future_of] in Fu; injection Fu as <-; cbn [step];
    (apply gated_refused; intros m; [rewrite ?usable_stale; reflexivity|]);
    try (apply guarded_refused; intros m1; open_lets; reflexivity);
    rewrite refresh_stale, refresh_is.
  - destruct (fresh k0 m) eqn:F; [cbn; auto|].
    rewrite grant_stale_ok by lia. discriminate.
  - destruct r; [cbn; discriminate|].
    destruct (fresh k0 m - fresh k0 m mod S r) eqn:F; [cbn; auto|].
    rewrite grant_stale_ok by lia. discriminate.
Qed.

(** [MRBFuture::poll], first poll, in every Model state *)
Theorem poll_form s k o : future_of o = Some k ->
  (refused (fst (snd (step (base s) o))) = false ->
     poll k o s = (set_base (fst (step (base s) o)) s, snd (step (base s) o))) /\
  (refused (fst (snd (step (base s) o))) = true ->
     poll k o s = (register k (set_base (fst (step (base s) o)) s), (OPending, [])) /\
     fst (step (base s) o) = stale k (base s) /\ snd (snd (step (base s) o)) = []).
Proof.
  intros Fu. split; intros Hr; [exact (poll_not_refused k o s Hr)|].
  destruct (step_refused o k Fu (base s) Hr) as (E1 & E2 & E3). split; [|auto].
  (* the second attempt starts from the refreshed state and is the same refusal *)
  unfold poll. destruct (step (base s) o) as [m1 [x1 e1]] eqn:E. cbn [fst snd] in *. rewrite Hr.
  subst m1 e1. rewrite E3, Hr. reflexivity.
Qed.

(** C13, async form: creating the future of [o], polling it once and dropping it ([APoll o]) leaves the buffer
    exactly as the synchronous [o] does, with the same ledger events, and returns the same output - or [Pending]
    where the synchronous form returns its refusal ([None] / [Err(value)]); in that case no ledger event occurs
    and only the remembered availability of the borrowed iterator has been refreshed. *)
Theorem C13_async_form s k o :
  future_of o = Some k -> free_iter k s = true -> det (it_of k (base s)) = false ->
  let r := step (base s) o in
  base (fst (astep s (APoll o))) = fst r /\
  snd (astep s (APoll o)) = ((if refused (fst (snd r)) then OPending else fst (snd r)), snd (snd r)) /\
  held (fst (astep s (APoll o))) = held s /\
  (refused (fst (snd r)) = true -> snd (snd r) = [] /\ fst r = stale k (base s)).
Proof.
  intros Fu Fr D. cbv zeta. cbn [astep]. rewrite Fu, Fr, D. cbn [negb andb].
  destruct (poll_form s k o Fu) as [Hready Hpend].
  destruct (refused (fst (snd (step (base s) o)))) eqn:Hr.
  - destruct (Hpend eq_refl) as (E & E1 & E2). rewrite E. cbn [fst snd base set_base register held].
    rewrite E2. repeat match goal with |- _ /\ _ => split end; auto.
  - rewrite (Hready eq_refl). cbn [fst snd base set_base held].
    repeat match goal with |- _ /\ _ => split end; auto; try discriminate.
    destruct (step (base s) o) as [m1 [x1 e1]]. reflexivity.
Qed.

(** the same against the Spec, for reachable states and contract-respecting operations: Ready carries the Spec's
    output and events and the buffer refines the Spec's next state; Pending leaves the Spec state untouched *)
Theorem C13_async_form_spec s a k o :
  Rel (base s) a -> ok_op a o = true ->
  future_of o = Some k -> free_iter k s = true -> det (it_of k (base s)) = false ->
  let r := sstep a o in
  Rel (base (fst (astep s (APoll o)))) (fst r) /\
  snd (astep s (APoll o)) = ((if refused (fst (snd r)) then OPending else fst (snd r)), snd (snd r)) /\
  (refused (fst (snd r)) = true -> fst r = a /\ snd (snd r) = []).
Proof.
  intros R OK Fu Fr D. cbv zeta.
  destruct (C13_async_form s k o Fu Fr D) as (E1 & E2 & _ & _).
  pose proof (step_refines _ _ o R OK) as [E R1].
  rewrite E1, E2, E. split; [exact R1|]. split; [reflexivity|].
  intros Hr. pose proof (AsyncFacts.sstep_refused_same a o Hr) as Same. rewrite Same. auto.
Qed.

(** Non-vacuity and sharpness: concrete states *)

(** len 4, two stages, plain items, two items pushed *)
Definition ex_cfg : config := mkConfig [0; 0; 0; 0]%N false true false.
Definition ex_m0 : mstate :=
  do_split false (mkM 4 [0; 0; 0; 0]%N (mkTri 0 0 0) (mkTri false false false)
                      (mkTri gone_iter gone_iter gone_iter) false true false false first_clone_id).
Definition ex_a0 : pipe :=
  mkS 4 [0; 0; 0; 0]%N (mkTri 0 0 0) (mkTri 0 0 0) (mkTri false false false)
      (mkTri true false true) (mkTri true false true) false true false false first_clone_id.
Definition ex_m : mstate := fst (run ex_m0 [Push 11; Push 22]%N).
Definition ex_a : pipe := fst (fst (srun ex_a0 [Push 11; Push 22]%N)).

Example ex_init : init ex_cfg = Some ex_m0 /\ a_init ex_cfg = Some ex_a0.
Proof. split; reflexivity. Qed.

Example ex_rel : Rel ex_m ex_a.
Proof.
  pose proof (run_refines [Push 11; Push 22]%N ex_m0 ex_a0 (init_refines ex_cfg)) as H.
  unfold ex_m, ex_a. destruct (srun ex_a0 [Push 11; Push 22]%N) as [[a' ys] []] eqn:Es; [|discriminate (f_equal snd Es)].
  destruct (run ex_m0 [Push 11; Push 22]%N) as [m' xs]. exact (proj2 (H eq_refl)).
Qed.

(** the hypotheses of the detached-form theorems hold there *)
Example ex_hyps :
  attached C ex_m = true /\ msynced C ex_m /\ a_attached C ex_a = true /\ synced C ex_a /\ tape_covers ex_a /\
  ok_op ex_a (Advance C 1) = true /\ snd (srun ex_a [GetExact C 2; Poke C 0 7%N; Advance C 1; GetOne C; Advance C 1]) = true.
Proof. vm_compute. repeat match goal with |- _ /\ _ => split end; auto. Qed.

(** consumer: detach, advance 1, attach = advance 1 (Model and Spec), in numbers *)
Example ex_model_advance :
  run ex_m [Detach C; Advance C 1; Attach C] = (fst (run ex_m [Advance C 1]), [(OUnit, []); (OUnit, []); (OUnit, [])]) /\
  fst (run ex_m [Advance C 1]) =
  mkM 4 [11; 22; 0; 0]%N (mkTri 2 0 1) (mkTri true false true)
      (mkTri (mkIter 2 1 false true) gone_iter (mkIter 1 0 false true)) false true false false first_clone_id.
Proof. vm_compute. split; reflexivity. Qed.

Example ex_spec_advance :
  srun ex_a [Detach C; Advance C 1; Attach C] =
  (fst (fst (srun ex_a [Advance C 1])), [(OUnit, []); (OUnit, []); (OUnit, [])], true) /\
  tape (fst (fst (srun ex_a [Advance C 1]))) = [11; 22; 0; 0; 11]%N /\
  ppos (fst (fst (srun ex_a [Advance C 1]))) = mkTri 2 0 1.
Proof. vm_compute. repeat match goal with |- _ /\ _ => split end; reflexivity. Qed.

(** a block with grants, a write through the granted reference, and two advances *)
Definition ex_block : list op := [GetExact C 2; Poke C 0 7%N; Advance C 1; GetOne C; Advance C 1].

Example ex_model_block :
  run ex_m ([Detach C] ++ ex_block ++ [Attach C]) =
  (fst (run ex_m ex_block), (OUnit, []) :: snd (run ex_m ex_block) ++ [(OUnit, [])]) /\
  map fst (snd (run ex_m ex_block)) = [OSlices 0 [11; 22]%N []; OUnit; OUnit; ORef 1 22%N; OUnit].
Proof. vm_compute. split; reflexivity. Qed.

Example ex_spec_block :
  srun ex_a ([Detach C] ++ ex_block ++ [Attach C]) =
  (fst (fst (srun ex_a ex_block)), (OUnit, []) :: snd (fst (srun ex_a ex_block)) ++ [(OUnit, [])], true) /\
  tape (fst (fst (srun ex_a ex_block))) = [7; 22; 0; 0; 7; 22]%N.
Proof. vm_compute. split; reflexivity. Qed.

(** producer: detach, look at the next slot, write it, advance, attach = the same without detaching *)
Example ex_model_producer :
  run ex_m [Detach P; GetExact P 1; PokeInit P 0 33%N; Advance P 1; Attach P] =
  (fst (run ex_m [GetExact P 1; PokeInit P 0 33%N; Advance P 1]),
   (OUnit, []) :: snd (run ex_m [GetExact P 1; PokeInit P 0 33%N; Advance P 1]) ++ [(OUnit, [])]) /\
  slots (fst (run ex_m [GetExact P 1; PokeInit P 0 33%N; Advance P 1])) = [11; 22; 33; 0]%N /\
  tP (pub (fst (run ex_m [GetExact P 1; PokeInit P 0 33%N; Advance P 1]))) = 3.
Proof. vm_compute. repeat match goal with |- _ /\ _ => split end; reflexivity. Qed.

(** reset_index, attached and detached *)
Example ex_model_reset :
  run ex_m [Detach C; DReset C; Attach C] = (fst (step ex_m (Reset C)), [(OUnit, []); (OUnit, []); (OUnit, [])]) /\
  tC (pub (fst (step ex_m (Reset C)))) = 2.
Proof. vm_compute. split; reflexivity. Qed.

(** sharpness 1: [msynced] cannot be dropped from the Model theorem for arbitrary (unreachable) records: with a
    published consumer index 1 and a local index 0, detach / attach republishes *)
Definition ex_unsynced : mstate :=
  mkM 4 [0; 0; 0; 0]%N (mkTri 0 0 1) (mkTri true false true) (mkTri new_iter gone_iter new_iter)
      false true false false first_clone_id.

Example model_detached_form_unsynced_refuted :
  attached C ex_unsynced = true /\ det_form C (Avail C) = true /\
  fst (run ex_unsynced [Detach C; Avail C; Attach C]) <> fst (step ex_unsynced (Avail C)).
Proof.
  repeat match goal with |- _ /\ _ => split end; try reflexivity.
  intros H. apply (f_equal (fun x => tC (pub x))) in H. vm_compute in H. discriminate.
Qed.

(** sharpness 2: on the Spec the block form needs the contract (the Model does not): a write beyond the granted
    window (offset 3 with availability 0) lands on a tape position that exists only once the consumer has published *)
Definition ex_bad_block : list op := [Advance C 2; Poke C 3 9%N].

Example spec_detached_block_without_contract_refuted :
  a_attached C ex_a = true /\ synced C ex_a /\ tape_covers ex_a /\
  Forall (fun o => det_form C o = true) ex_bad_block /\
  snd (srun ex_a ex_bad_block) = false /\
  tape (fst (fst (srun ex_a ([Detach C] ++ ex_bad_block ++ [Attach C])))) = [11; 22; 0; 0; 11; 22]%N /\
  tape (fst (fst (srun ex_a ex_bad_block))) = [11; 22; 0; 0; 11; 9]%N /\
  (* while the Model agrees even there *)
  run ex_m ([Detach C] ++ ex_bad_block ++ [Attach C]) =
  (fst (run ex_m ex_bad_block), (OUnit, []) :: snd (run ex_m ex_bad_block) ++ [(OUnit, [])]).
Proof.
  repeat match goal with |- _ /\ _ => split end; vm_compute; auto.
Qed.

(** async: the consumer's [pop] future resolves at the first poll with the synchronous result ... *)
Example ex_async_ready :
  astep (a_init_state ex_m) (APoll Pop) = (set_base (fst (step ex_m Pop)) (a_init_state ex_m), (OVal 11%N, [])) /\
  snd (step ex_m Pop) = (OVal 11%N, []).
Proof. vm_compute. split; reflexivity. Qed.

(** ... and a request for three items when two are there is Pending; the only trace in the buffer is the
    consumer's remembered availability, refreshed from 0 to 2 exactly as by the refused synchronous call *)
Example ex_async_pending :
  snd (astep (a_init_state ex_m) (APoll (CopySlice 3))) = (OPending, []) /\
  snd (step ex_m (CopySlice 3)) = (ONone, []) /\
  base (fst (astep (a_init_state ex_m) (APoll (CopySlice 3)))) = fst (step ex_m (CopySlice 3)) /\
  fst (step ex_m (CopySlice 3)) = set_ca C 2 ex_m /\ ca (it_of C ex_m) = 0.
Proof. vm_compute. repeat match goal with |- _ /\ _ => split end; reflexivity. Qed.

Print Assumptions model_detached_block.
Print Assumptions model_detached_form.
Print Assumptions model_reset_form.
Print Assumptions spec_detached_block.
Print Assumptions spec_detached_form.
Print Assumptions spec_reset_form.
Print Assumptions C13_detached_block.
Print Assumptions C13_detached_form.
Print Assumptions C13_reset_form.
Print Assumptions poll_form.
Print Assumptions C13_async_form.
Print Assumptions C13_async_form_spec.
Print Assumptions ex_rel.
Print Assumptions model_detached_form_unsynced_refuted.
Print Assumptions spec_detached_block_without_contract_refuted.
