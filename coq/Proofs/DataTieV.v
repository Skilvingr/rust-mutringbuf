(** * D-tie for the bodies compiled with feature [vmem] (gen/DataFnsV.v): [next_chunk(_mut)] hand out ONE slice of the double mapping,
      [_push_slice] / [_extract_slice] run their closure once over it.  A slice of the double mapping starting below [len] and at most
      [len] long is, cell by cell, the ring window of the Model: an element loop over it is the loop over the head run (up to the
      physical end) followed by the loop over the tail run (from slot 0) - so everything proved for the two-slice bodies carries over. *)
From Coq Require Import List Arith NArith Lia.
Import ListNotations.
Require Import MRB.Base.Ring MRB.Base.ListAux MRB.Model.Types MRB.Model.Seq MRB.Model.DataM.
Require Import MRB.Proofs.DataTie MRB.Proofs.DataTieSlices.
Require MRB.gen.DataFnsV.


Lemma for_n_split a : forall b j (body : nat -> DM unit) d,
  for_n (a + b) j body d = (for_n a j body ;;~ for_n b (j + a) body) d.
Proof.
  induction a as [|a IH]; intros b j body d.
  - cbn [Nat.add for_n]. unfold dbind, dret. rewrite Nat.add_0_r. reflexivity.
  - cbn [Nat.add for_n]. unfold dbind. destruct (body j d) as [[[] d1]|]; [|reflexivity].
    rewrite IH. unfold dbind. replace (S j + a) with (j + S a) by lia. reflexivity.
Qed.

Lemma for_n_ext_range n : forall j (f g : nat -> DM unit), (forall j' d, j <= j' < j + n -> f j' d = g j' d) ->
  forall d, for_n n j f d = for_n n j g d.
Proof.
  induction n as [|n IH]; intros j f g H d; [reflexivity|].
  cbn [for_n]. unfold dbind. rewrite H by lia. destruct (g j d) as [[[] d1]|]; [|reflexivity].
  apply IH. intros j' d' Hj. apply H. lia.
Qed.

Lemma for_n_shift n : forall j (body : nat -> DM unit) d, for_n n j body d = for_n n 0 (fun i => body (j + i)) d.
Proof.
  induction n as [|n IH]; intros j body d; [reflexivity|].
  cbn [for_n]. unfold dbind. rewrite Nat.add_0_r. destruct (body j d) as [[[] d1]|]; [|reflexivity].
  rewrite IH. rewrite (IH 1). apply for_n_ext_range. intros i d' _. f_equal. lia.
Qed.

(** positions of a slice of the double mapping *)
Lemma mirror_tail len o j : len <= o + j -> o + j < len + len -> (o + j) mod len = o + j - len.
Proof.
  intros H1 H2. set (r := o + j - len). replace (o + j) with (r + 1 * len) by (unfold r; lia).
  rewrite Nat.mod_add by lia. apply Nat.mod_small. unfold r. lia.
Qed.

(** what holds at every position of a mirrored slice holds at the positions of the head run and at those of the tail run *)
Lemma mirror_cases len o n (Q : nat -> nat -> Prop) : o < len -> n <= len ->
  (forall j, j < n -> Q j ((o + j) mod len)) ->
  let '(h, t) := chunk len o n in (forall j, j < h -> Q j (o + j)) /\ (forall i, i < t -> Q (h + i) i).
Proof.
  intros Ho Hn H. pose proof (chunk_spec len o n Ho Hn) as Hc. destruct (chunk len o n) as [h t]. destruct Hc as (Hsum & Hoh & Hto & Hw).
  split; intros j Hj.
  - rewrite <- (Nat.mod_small (o + j) len) by lia. apply H. lia.
  - replace j with ((o + (h + j)) mod len) at 2; [apply H; lia|].
    replace (o + (h + j)) with (o + h + j) by lia. rewrite mirror_tail by lia. lia.
Qed.

Section Mirror.
Variable E : denv.
Local Notation srcl := (dn_src E).

(** caller's slice -> a slice of the double mapping: head run, then tail run; for any body that does what [clone_body] does where it is run *)
Lemma loop_src_mirror m so o n N1 N2 (f : nat -> DM unit) d :
  let len := length (d_slots d) in
  o < len -> n <= len -> so + n <= length srcl ->
  (let '(h, t) := chunk len o n in win_range d o h /\ win_range d 0 t) ->
  (forall j d', j < n -> so + j < length srcl -> (o + j) mod len < length (d_slots d') -> in_window d' ((o + j) mod len) = true ->
     f j d' = clone_body E m (mkSl RSrc so N1) (mkSl (RBufV len) o N2) j d') ->
  for_n n 0 f d =
  Some (tt, let '(h, t) := chunk len o n in run_effect E m 0 (so + h) t (run_effect E m o so h d)).
Proof.
  intros len Ho Hn Hs HW Hf.
  pose proof (mirror_cases len o n (fun j p => forall d', so + j < length srcl -> p < length (d_slots d') -> in_window d' p = true ->
    f j d' = (v <~ rd E (LSrc (so + j)) ;; c <~ clone_ E v ;; store_mode E m (LBuf p) c) d') Ho Hn) as Hm.
  pose proof (chunk_spec len o n Ho Hn) as Hc. destruct (chunk len o n) as [h t].
  destruct HW as [HWh HWt]. destruct Hc as (Hsum & Hoh & Hto & Hw).
  destruct Hm as [Hhead Htail]; [intros j Hj d'; apply Hf; exact Hj|].
  rewrite <- Hsum in *. rewrite for_n_split. unfold dbind at 1.
  rewrite (clone_loop_src_buf E m so o N1 N2 f h); [| lia | fold len; lia | rewrite Nat.add_0_r; exact HWh |].
  2:{ intros j d' Hj. apply Hhead. lia. }
  rewrite !Nat.add_0_r. fold (run_effect E m o so h d). cbn [Nat.add].
  rewrite for_n_shift.
  rewrite (clone_loop_src_buf E m (so + h) 0 N1 N2 _ t); [| lia | unfold run_effect; cbn [d_slots]; rewrite write_length; fold len; lia
                                                          | apply win_range_run_effect; exact HWt |].
  2:{ intros i d' Hi. unfold clone_body, sl_at. cbn [s_reg s_off Nat.add]. rewrite <- Nat.add_assoc. apply Htail. lia. }
  rewrite !Nat.add_0_r. reflexivity.
Qed.

Lemma clone_loop_src_mirror m so o n N1 N2 d :
  let len := length (d_slots d) in
  o < len -> n <= len -> so + n <= length srcl ->
  (let '(h, t) := chunk len o n in win_range d o h /\ win_range d 0 t) ->
  for_n n 0 (clone_body E m (mkSl RSrc so N1) (mkSl (RBufV len) o N2)) d =
  Some (tt, let '(h, t) := chunk len o n in run_effect E m 0 (so + h) t (run_effect E m o so h d)).
Proof. intros len Ho Hn Hs HW. apply (loop_src_mirror m so o n N1 N2); try assumption. intros; reflexivity. Qed.

(** a slice of the double mapping -> the caller's destination *)
Lemma loop_mirror_out m o oo n N1 N2 (f : nat -> DM unit) d :
  let len := length (d_slots d) in
  o < len -> n <= len -> oo + n <= length (d_out d) ->
  (let '(h, t) := chunk len o n in win_range d o h /\ win_range d 0 t) ->
  (forall j d', j < n -> (o + j) mod len < length (d_slots d') -> in_window d' ((o + j) mod len) = true -> oo + j < length (d_out d') ->
     f j d' = clone_body E m (mkSl (RBufV len) o N1) (mkSl RDst oo N2) j d') ->
  for_n n 0 f d =
  Some (tt, let '(h, t) := chunk len o n in xrun_effect E 0 (oo + h) t (xrun_effect E o oo h d)).
Proof.
  intros len Ho Hn Hs HW Hf.
  pose proof (mirror_cases len o n (fun j p => forall d', p < length (d_slots d') -> in_window d' p = true -> oo + j < length (d_out d') ->
    f j d' = (v <~ rd E (LBuf p) ;; c <~ clone_ E v ;; store_mode E m (LDst (oo + j)) c) d') Ho Hn) as Hm.
  pose proof (chunk_spec len o n Ho Hn) as Hc. destruct (chunk len o n) as [h t].
  destruct HW as [HWh HWt]. destruct Hc as (Hsum & Hoh & Hto & Hw).
  destruct Hm as [Hhead Htail]; [intros j Hj d'; apply Hf; exact Hj|].
  rewrite <- Hsum in *. rewrite for_n_split. unfold dbind at 1.
  rewrite (clone_loop_buf_out E m o oo N1 N2 f h); [| fold len; lia | lia | rewrite Nat.add_0_r; exact HWh |].
  2:{ intros j d' Hj. apply Hhead. lia. }
  rewrite !Nat.add_0_r. fold (xrun_effect E o oo h d). cbn [Nat.add].
  rewrite for_n_shift.
  rewrite (clone_loop_buf_out E m 0 (oo + h) N1 N2 _ t); [| unfold xrun_effect; cbn [d_slots]; fold len; lia
                                                         | unfold xrun_effect; cbn [d_out]; rewrite write_length; lia
                                                         | apply win_range_xrun_effect; exact HWt |].
  2:{ intros i d' Hi. unfold clone_body, sl_at. cbn [s_reg s_off Nat.add]. rewrite <- Nat.add_assoc. apply Htail. lia. }
  rewrite !Nat.add_0_r. reflexivity.
Qed.

Lemma clone_loop_mirror_out m o oo n N1 N2 d :
  let len := length (d_slots d) in
  o < len -> n <= len -> oo + n <= length (d_out d) ->
  (let '(h, t) := chunk len o n in win_range d o h /\ win_range d 0 t) ->
  for_n n 0 (clone_body E m (mkSl (RBufV len) o N1) (mkSl RDst oo N2)) d =
  Some (tt, let '(h, t) := chunk len o n in xrun_effect E 0 (oo + h) t (xrun_effect E o oo h d)).
Proof. intros len Ho Hn Hs HW. apply (loop_mirror_out m o oo n N1 N2); try assumption. intros; reflexivity. Qed.
End Mirror.

(** ** [next_chunk] / [next_chunk_mut] of the vmem build: one slice of the double mapping, [count] cells from the local index *)
Section ChunkV.
Variables (k : stage) (s : mstate) (src out : list cell) (n : nat).
Hypothesis Hwf : wf k s.
Local Notation E := (denv_of k s src).

Definition grantv_res (r : option sl) (d : dst) : Prop :=
  let '(s', (o, _)) := grant k n s in
  agrees k s' [] [] d /\ d_out d = out /\
  match r, o with
  | Some a, OSlices i h t => a = mkSl (RBufV (mlen s)) i n /\ n <= mlen s /\ i < mlen s /\ i = ix (it_of k s')
  | None, ONone => True
  | _, _ => False
  end.

(** what these functions answer and the state they leave *)
Definition chunkv_grant : option sl * dst :=
  let '(g, s1) := check k n s in (if g then Some (mkSl (RBufV (mlen s)) (ix (it_of k s1)) n) else None, view k s1 out).
Lemma chunkv_grant_eq g s1 : check k n s = (g, s1) ->
  chunkv_grant = (if g then Some (mkSl (RBufV (mlen s)) (ix (it_of k s1)) n) else None, view k s1 out).
Proof. unfold chunkv_grant. intros ->. reflexivity. Qed.

Ltac chunkv_tac unf Hslots :=
  unfold chunkv_grant; checked k n s Hwf; unf; steps; rewrite Hslots; destruct Hwf as [_ _ -> _ _]; reflexivity.

Lemma next_chunk_mut_v_run : DataFnsV.d_next_chunk_mut E n (view k s out) = Some chunkv_grant.
Proof. chunkv_tac ltac:(unfold DataFnsV.d_next_chunk_mut) Hslots. Qed.

Lemma next_chunk_v_run : DataFnsV.d_next_chunk E n (view k s out) = Some chunkv_grant.
Proof. chunkv_tac ltac:(unfold DataFnsV.d_next_chunk) Hslots. Qed.

Lemma chunkv_grant_res : grantv_res (fst chunkv_grant) (snd chunkv_grant).
Proof.
  unfold chunkv_grant, grantv_res, grant, Seq.rd, Seq.ret. destruct (check_spec k n s Hwf) as (Hwf1 & A & B & _ & _ & _ & _ & Hg).
  destruct (check k n s) as [[] s1]; cbn [fst snd] in *; [destruct (chunk (mlen s1) (ix (it_of k s1)) n)|];
  (split; [apply agrees_view | split; [reflexivity|]]); [|exact I].
  destruct (Hg eq_refl) as [_ Hn]. destruct Hwf1 as [W1 _ _ _ _]. repeat split; lia.
Qed.

Theorem tie_next_chunk_mut_v : exists r d, drun (DataFnsV.d_next_chunk_mut E n) (view k s out) = Some (r, d) /\ grantv_res r d.
Proof. exact (run_res _ _ _ _ next_chunk_mut_v_run chunkv_grant_res). Qed.

Theorem tie_next_chunk_v : exists r d, drun (DataFnsV.d_next_chunk E n) (view k s out) = Some (r, d) /\ grantv_res r d.
Proof. exact (run_res _ _ _ _ next_chunk_v_run chunkv_grant_res). Qed.
End ChunkV.

(** ** the closures over a slice of the double mapping *)
Definition store_spec_v (E : denv) (m : smode) (f : sl -> sl -> DM unit) : Prop :=
  forall o so c d, let len := length (d_slots d) in
    o < len -> c <= len -> so + c <= length (dn_src E) ->
    (let '(h, t) := chunk len o c in win_range d o h /\ win_range d 0 t) ->
    f (mkSl (RBufV len) o c) (mkSl RSrc so c) d =
    Some (tt, let '(h, t) := chunk len o c in run_effect E m 0 (so + h) t (run_effect E m o so h d)).

Definition extract_spec_v (E : denv) (f : sl -> sl -> DM unit) : Prop :=
  forall o oo c d, let len := length (d_slots d) in
    o < len -> c <= len -> oo + c <= length (d_out d) ->
    (let '(h, t) := chunk len o c in win_range d o h /\ win_range d 0 t) ->
    f (mkSl (RBufV len) o c) (mkSl RDst oo c) d =
    Some (tt, let '(h, t) := chunk len o c in xrun_effect E 0 (oo + h) t (xrun_effect E o oo h d)).

Section ClosuresV.
Variable E : denv.

Lemma spec_copy_v m (f : sl -> sl -> DM unit) : dn_owned E = false ->
  (forall a b d, f a b d = (v <~ copy_from_slice_unchecked E b a ;; dret tt) d) -> store_spec_v E m f.
Proof.
  intros Hpl Hf o so c d len H1 H2 H3 HW. rewrite Hf, pass_on_unit. unfold copy_from_slice_unchecked. cbn [s_len]. rewrite Nat.leb_refl.
  apply (loop_src_mirror E m so o c c c); try assumption.
  intros; unfold clone_body, sl_at; cbn [s_reg s_off]; apply copy_src_buf; assumption.
Qed.

Lemma spec_clone_v (f : sl -> sl -> DM unit) :
  (forall a b d, f a b d = (v <~ clone_from_slice E a b ;; dret tt) d) -> store_spec_v E SAssign f.
Proof.
  intros Hf o so c d len H1 H2 H3 HW. rewrite Hf, pass_on_unit. unfold clone_from_slice. cbn [s_len]. rewrite Nat.eqb_refl.
  apply (clone_loop_src_mirror E SAssign so o c c c); assumption.
Qed.

Lemma spec_zip_v m (f : sl -> sl -> DM unit) (body : loc -> loc -> DM unit) :
  (forall a b d, f a b d = (for_zip a b body ;;~ dret tt) d) ->
  (forall x y d, x < length (d_slots d) -> in_window d x = true -> y < length (dn_src E) ->
     body (LBuf x) (LSrc y) d = (v <~ rd E (LSrc y) ;; c <~ clone_ E v ;; store_mode E m (LBuf x) c) d) ->
  store_spec_v E m f.
Proof.
  intros Hf Hb o so c d len H1 H2 H3 HW. rewrite Hf, pass_on_unit. unfold for_zip. cbn [s_len]. rewrite Nat.min_id.
  apply (loop_src_mirror E m so o c c c); try assumption.
  intros; unfold sl_at; cbn [s_reg s_off]; apply Hb; assumption.
Qed.

Lemma xspec_copy_v (f : sl -> sl -> DM unit) : dn_owned E = false ->
  (forall a b d, f a b d = (v <~ copy_from_slice_unchecked E a b ;; dret tt) d) -> extract_spec_v E f.
Proof.
  intros Hpl Hf o oo c d len H1 H2 H3 HW. rewrite Hf, pass_on_unit. unfold copy_from_slice_unchecked. cbn [s_len]. rewrite Nat.leb_refl.
  apply (loop_mirror_out E SAssign o oo c c c); try assumption.
  intros; unfold clone_body, sl_at; cbn [s_reg s_off]; apply copy_buf_out; assumption.
Qed.

Lemma xspec_clone_v (f : sl -> sl -> DM unit) :
  (forall a b d, f a b d = (v <~ clone_from_slice E b a ;; dret tt) d) -> extract_spec_v E f.
Proof.
  intros Hf o oo c d len H1 H2 H3 HW. rewrite Hf, pass_on_unit. unfold clone_from_slice. cbn [s_len]. rewrite Nat.eqb_refl.
  apply (clone_loop_mirror_out E SAssign o oo c c c); assumption.
Qed.
End ClosuresV.

(** ** [_push_slice] of the vmem build: one call of the closure over the mirrored window = the Model's [push_slice] *)
Section PushSliceV.
Variables (s : mstate) (vs out : list cell).
Hypothesis Hwf : wf P s.
Hypothesis Hatt : det (it_of P s) = false.
Local Notation E := (denv_of P s vs).
Local Notation n := (length vs).

Theorem push_slice_generic_v (m : smode) (cl : bool) (f : sl -> sl -> DM unit) :
  store_spec_v E m f -> (cl = false -> owned s = false) ->
  exists r d, drun (DataFnsV.d__push_slice E (src_sl E) f) (view P s out) = Some (r, d) /\ push_slice_res s vs out m cl r d.
Proof.
  intros Hf Hcl. unfold DataFnsV.d__push_slice, DataFnsV.d_advance, src_sl, drun. cbn [s_len dn_src dn_E denv_of].
  unfold dbind at 1. rewrite (next_chunk_mut_v_run P s vs out n Hwf).
  destruct (check_spec P n s Hwf) as (Hwf1 & _ & B & _ & _ & _ & _ & Hg).
  destruct (check P n s) as [[] s1] eqn:Ck; rewrite (chunkv_grant_eq P s out n _ _ Ck); cbn [fst snd] in *.
  2:{ unfold push_slice_res, push_slice, dbind, dret. rewrite Ck. eexists _, _. split; [reflexivity|].
      split; [apply agrees_view | split; [reflexivity | exact I]]. }
  destruct (Hg eq_refl) as [Hg1 Hn]. clear Hg.
  pose proof (win_granted P s1 out n Hwf1 Hg1) as HW. destruct Hwf1 as [Hi _ Hl _ _]. rewrite B in *.
  pose proof (Hf (ix (it_of P s1)) 0 n (view P s1 out)) as Hf1. cbn [view d_slots dn_src denv_of] in Hf1. cbv zeta in Hf1. rewrite Hl in Hf1.
  unfold dbind, dret. rewrite Hf1; [| lia | lia | lia | exact (HW Hn)].
  destruct (push_slice_granted s vs out Hwf Hatt m cl s1 Ck Hcl) as (d & Ra & Res).
  cbn [Nat.add]. rewrite Ra. eexists _, _. split; [reflexivity | exact Res].
Qed.

Theorem tie_push_slice_v : owned s = false ->
  exists r d, drun (DataFnsV.d_push_slice E (src_sl E)) (view P s out) = Some (r, d) /\ push_slice_res s vs out SCopy false r d.
Proof.
  intros Hpl. unfold DataFnsV.d_push_slice. to_call. apply (push_slice_generic_v SCopy false); [|intros _; exact Hpl].
  apply spec_copy_v; [exact Hpl | intros; reflexivity].
Qed.

Theorem tie_push_slice_clone_v :
  exists r d, drun (DataFnsV.d_push_slice_clone E (src_sl E)) (view P s out) = Some (r, d) /\ push_slice_res s vs out SAssign true r d.
Proof.
  unfold DataFnsV.d_push_slice_clone. to_call. apply (push_slice_generic_v SAssign true); [|discriminate].
  apply spec_clone_v; intros; reflexivity.
Qed.

Theorem tie_push_slice_clone_init_v :
  exists r d, drun (DataFnsV.d_push_slice_clone_init E (src_sl E)) (view P s out) = Some (r, d) /\ push_slice_res s vs out SInit true r d.
Proof.
  unfold DataFnsV.d_push_slice_clone_init. to_call. apply (push_slice_generic_v SInit true); [|discriminate].
  eapply spec_zip_v; [intros; reflexivity|]. intros x y d Hx Hw Hy. init_body x d; reflexivity.
Qed.

Theorem tie_push_slice_init_v : owned s = false ->
  exists r d, drun (DataFnsV.d_push_slice_init E (src_sl E)) (view P s out) = Some (r, d) /\ push_slice_res s vs out SCopy false r d.
Proof.
  intros Hpl. unfold DataFnsV.d_push_slice_init. to_call. apply (push_slice_generic_v SCopy false); [|intros _; exact Hpl].
  eapply spec_zip_v; [intros; reflexivity|]. intros x y d Hx Hw Hy. init_body x d;
  cbn [dn_owned denv_of]; rewrite Hpl; norm; rewrite ?app_nil_r; reflexivity.
Qed.
End PushSliceV.

(** ** [_extract_slice] of the vmem build *)
Section ExtractSliceV.
Variables (s : mstate) (src out : list cell).
Hypothesis Hwf : wf C s.
Hypothesis Hatt : det (it_of C s) = false.
Local Notation E := (denv_of C s src).
Local Notation n := (length out).

Theorem extract_slice_generic_v (cl : bool) (f : sl -> sl -> DM unit) :
  extract_spec_v E f -> (cl = false -> owned s = false) ->
  exists r d, drun (DataFnsV.d__extract_slice E (mkSl RDst 0 n) f) (view C s out) = Some (r, d) /\ extract_slice_res s out cl r d.
Proof.
  intros Hf Hcl. unfold DataFnsV.d__extract_slice, DataFnsV.d_advance, drun. cbn [s_len dn_E denv_of].
  unfold dbind at 1. rewrite (next_chunk_v_run C s src out n Hwf).
  destruct (check_spec C n s Hwf) as (Hwf1 & _ & B & _ & _ & _ & _ & Hg).
  destruct (check C n s) as [[] s1] eqn:Ck; rewrite (chunkv_grant_eq C s out n _ _ Ck); cbn [fst snd] in *.
  2:{ unfold extract_slice_res, extract_slice, dbind, dret. rewrite Ck. eexists _, _. split; [reflexivity|].
      split; [apply agrees_view | reflexivity]. }
  destruct (Hg eq_refl) as [Hg1 Hn]. clear Hg.
  pose proof (win_granted C s1 out n Hwf1 Hg1) as HW. destruct Hwf1 as [Hi _ Hl _ _]. rewrite B in *.
  pose proof (Hf (ix (it_of C s1)) 0 n (view C s1 out)) as Hf1. cbn [view d_slots d_out] in Hf1. cbv zeta in Hf1. rewrite Hl in Hf1.
  unfold dbind, dret. rewrite Hf1; [| lia | lia | lia | exact (HW Hn)].
  destruct (extract_slice_granted s src out Hwf Hatt cl s1 Ck Hcl) as (d & Ra & Res).
  cbn [Nat.add]. rewrite Ra. eexists _, _. split; [reflexivity | exact Res].
Qed.

Theorem tie_copy_slice_v : owned s = false ->
  exists r d, drun (DataFnsV.d_copy_slice E (mkSl RDst 0 (length out))) (view C s out) = Some (r, d) /\ extract_slice_res s out false r d.
Proof.
  intros Hpl. unfold DataFnsV.d_copy_slice. to_call. apply (extract_slice_generic_v false); [|intros _; exact Hpl].
  apply xspec_copy_v; [exact Hpl | intros; reflexivity].
Qed.

Theorem tie_clone_slice_v :
  exists r d, drun (DataFnsV.d_clone_slice E (mkSl RDst 0 (length out))) (view C s out) = Some (r, d) /\ extract_slice_res s out true r d.
Proof.
  unfold DataFnsV.d_clone_slice. to_call. apply (extract_slice_generic_v true); [|discriminate].
  apply xspec_clone_v; intros; reflexivity.
Qed.
End ExtractSliceV.

(** the slice getters of the vmem build only pass the call on *)
Theorem tie_slice_wrappers_v k s src out n : wf k s ->
  (exists r d, drun (DataFnsV.d_get_workable_slice_exact (denv_of k s src) n) (view k s out) = Some (r, d) /\ grantv_res k s out n r d) /\
  (exists r d, drun (DataFnsV.d_get_next_slices_mut (denv_of k s src) n) (view k s out) = Some (r, d) /\ grantv_res k s out n r d) /\
  (exists r d, drun (DataFnsV.d_peek_slice (denv_of k s src) n) (view k s out) = Some (r, d) /\ grantv_res k s out n r d).
Proof.
  intros Hwf. repeat split;
  [ passes_on (tie_next_chunk_mut_v k s src out n Hwf) ltac:(unfold DataFnsV.d_get_workable_slice_exact)
  | passes_on (tie_next_chunk_mut_v k s src out n Hwf) ltac:(unfold DataFnsV.d_get_next_slices_mut)
  | passes_on (tie_next_chunk_v k s src out n Hwf) ltac:(unfold DataFnsV.d_peek_slice) ].
Qed.

(** a mirrored slice reads exactly the Model's two slices, head then tail *)
Theorem mirror_reads_window len (slots0 : list cell) o n : length slots0 = len -> o < len -> n <= len ->
  let '(h, t) := chunk len o n in
  map (fun j => nth ((o + j) mod len) slots0 0%N) (seq 0 n) = sub slots0 o h ++ sub slots0 0 t.
Proof.
  intros Hl Ho Hn. pose proof (chunk_spec len o n Ho Hn) as Hc. destruct (chunk len o n) as [h t].
  destruct Hc as (Hsum & Hoh & Hto & Hw).
  apply nth_ext with (d := 0%N) (d' := 0%N).
  - rewrite map_length, seq_length, app_length, !sub_length by lia. lia.
  - intros j Hj. rewrite map_length, seq_length in Hj.
    rewrite (nth_indep _ 0%N (nth ((o + 0) mod len) slots0 0%N)) by (rewrite map_length, seq_length; lia).
    rewrite (map_nth (fun j0 => nth ((o + j0) mod len) slots0 0%N) (seq 0 n) 0 j). rewrite seq_nth by lia. cbn [Nat.add].
    destruct (Nat.lt_ge_cases j h) as [Lt|Ge].
    + rewrite app_nth1 by (rewrite sub_length by lia; lia). rewrite nth_sub by lia. rewrite Nat.mod_small by lia. reflexivity.
    + rewrite app_nth2 by (rewrite sub_length by lia; lia). rewrite sub_length by lia. rewrite nth_sub by lia.
      replace (o + j) with (o + h + (j - h)) by lia. rewrite mirror_tail by lia. f_equal. lia.
Qed.

Theorem data_v_closed : DataFnsV.data_clean = true.
Proof. reflexivity. Qed.
