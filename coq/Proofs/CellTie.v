(** * C-tie: the functions of [unsafe_sync_cell.rs], translated on every run ([gen/CellFns.v]), are the slot primitives the Model uses

    For EVERY representation of items by bytes that satisfies [repr_ok] - in particular "a live value is never all-zero bytes", the
    hypothesis C08 and C09 state - and every slot content [v] ([0] = empty):
    - [check_zeroed] answers [isz v] (the emptiness test of [DataM.check_zeroed] and of [Seq]) and touches nothing;
    - [take_inner] hands out [v] and leaves the empty slot ([DataM.take_inner]: [st p 0]);
    - [inner_duplicate] / [inner_ref] / [inner_ref_mut] read [v] and leave the slot as it is;
    - dropping the cell runs the item's destructor exactly when the slot is occupied ([Seq.release_evs]'s rule), never on an empty one;
    - cloning the cell clones the item exactly when the slot is occupied and answers an empty cell otherwise, never reading an
      empty slot as an item;
    - [new] / [from] / [default] / [new_zeroed] build the cell holding that value / the empty cell. *)
From Coq Require Import List Arith NArith Bool Lia.
Import ListNotations.
Require Import MRB.Model.Seq MRB.Model.CellM MRB.gen.CellFns.
Open Scope cm_scope.

Lemma all_zero_zeros n : all_zero (zeros n) = true.
Proof. induction n as [|n IH]; [reflexivity|]. exact IH. Qed.

Lemma forallb_eqb_sym l : forallb (fun x => N.eqb x 0) l = all_zero l.
Proof. unfold all_zero. induction l as [|a l IH]; [reflexivity|]. cbn [forallb]. rewrite IH, (N.eqb_sym a 0). reflexivity. Qed.

Lemma forallb_eqb0 l : forallb (fun x => N.eqb 0 x) l = all_zero l.
Proof. reflexivity. Qed.
Lemma existsb_ne0 l : existsb (fun x => negb (N.eqb x 0)) l = negb (all_zero l).
Proof. unfold all_zero. induction l as [|a l IH]; [reflexivity|]. cbn [existsb forallb]. rewrite IH, (N.eqb_sym a 0), negb_andb. reflexivity. Qed.
Lemma existsb_ne0' l : existsb (fun x => negb (N.eqb 0 x)) l = negb (all_zero l).
Proof. unfold all_zero. induction l as [|a l IH]; [reflexivity|]. cbn [existsb forallb]. rewrite IH, negb_andb. reflexivity. Qed.

Section Tie.
Variable R : repr.
Hypothesis OK : repr_ok R.

Lemma all_zero_enc v : all_zero (r_enc R v) = isz v.
Proof.
  unfold isz. destruct (N.eqb_spec v 0) as [->|Hn].
  - rewrite (enc_none R OK). apply all_zero_zeros.
  - destruct (all_zero (r_enc R v)) eqn:Ha; [|reflexivity]. elim Hn. exact (live_nonzero R OK v Ha).
Qed.

Lemma bytes_all v es : bytes_at PSelf (size_of R) (mkC (r_enc R v) es) = Some (r_enc R v, mkC (r_enc R v) es).
Proof.
  unfold bytes_at, size_of. cbn [c_mem]. rewrite (enc_len R OK v), Nat.leb_refl.
  rewrite <- (enc_len R OK v) at 1. rewrite firstn_all. reflexivity.
Qed.

Lemma check_zeroed_at v es : g_check_zeroed R PSelf (mkC (r_enc R v) es) = Some (isz v, mkC (r_enc R v) es).
Proof.
  unfold g_check_zeroed, cbind. rewrite bytes_all. unfold all_, any_, cret.
  rewrite ?forallb_eqb_sym, ?forallb_eqb0, ?existsb_ne0, ?existsb_ne0', ?all_zero_enc, ?negb_involutive. reflexivity.
Qed.

Theorem tie_check_zeroed v : crun R (g_check_zeroed R PSelf) v = Some (a_check_zeroed v, mkC (r_enc R v) []).
Proof. unfold crun. apply check_zeroed_at. Qed.

(** one tactic for every function: unfold the translated body and the vocabulary of [CellM], use [check_zeroed_at] where the emptiness
    test is called, split on the slot being empty, finish with the representation's laws (independent of how the body is phrased) *)
Ltac prims := cbn [cbind cret mu_ptr mu_zeroed mu_new mu_into mu_replace mu_read mu_ref mu_drop clone_val default_val
                   g_as_mut_ptr g_new g_new_zeroed g_from g_default g_inner_ref g_inner_ref_mut g_inner_duplicate g_take_inner
                   c_mem c_evs app negb fst snd].
Ltac ctac v :=
  unfold crun; prims; unfold cbind; prims; rewrite ?check_zeroed_at; unfold a_drop, a_clone, a_check_zeroed;
  destruct (isz v); prims; rewrite ?(dec_enc R OK), ?(enc_none R OK); try reflexivity.

Theorem tie_as_mut_ptr v : crun R (g_as_mut_ptr R) v = Some (PSelf, mkC (r_enc R v) []).
Proof using OK. ctac v. Qed.

Theorem tie_take_inner v : crun R (g_take_inner R) v = Some (v, mkC (r_enc R 0%N) []).
Proof using OK. ctac v. Qed.

Theorem tie_inner_duplicate v : crun R (g_inner_duplicate R) v = Some (v, mkC (r_enc R v) []).
Proof using OK. ctac v. Qed.

Theorem tie_inner_ref v : crun R (g_inner_ref R) v = Some (v, mkC (r_enc R v) []) /\ crun R (g_inner_ref_mut R) v = Some (v, mkC (r_enc R v) []).
Proof using OK. split; ctac v. Qed.

(** [Drop]: the destructor of the item runs exactly when the slot is occupied *)
Theorem tie_drop v : crun R (g_drop R) v = Some (tt, mkC (r_enc R v) (a_drop v)).
Proof using OK. unfold g_drop. ctac v. Qed.

(** [Clone]: an empty cell is never read as an item *)
Theorem tie_clone v : crun R (g_clone R) v = Some (r_enc R (fst (a_clone R v)), mkC (r_enc R v) (snd (a_clone R v))).
Proof using OK. unfold g_clone. ctac v. Qed.

Theorem tie_ctors x s :
  g_new R x s = Some (r_enc R x, s) /\ g_from R x s = Some (r_enc R x, s) /\ g_new_zeroed R s = Some (r_enc R 0%N, s)
  /\ g_default R s = Some (r_enc R (r_default R), mkC (c_mem s) (c_evs s ++ [CDefault])).
Proof using OK. prims. rewrite ?(enc_none R OK). repeat split; reflexivity. Qed.

End Tie.

(** the hypothesis is satisfiable: two-byte items, little endian *)
Definition le2 : repr := mkRepr 2 (fun v => [N.modulo v 256; N.div v 256]) (fun b => (nth 0 b 0 + 256 * nth 1 b 0)%N) (fun v => (v + 1000)%N) 7%N.
Lemma le2_ok : repr_ok le2.
Proof.
  constructor; cbn [le2 r_sz r_enc r_dec]; intros.
  - reflexivity.
  - cbn [nth]. rewrite N.add_comm, N.mul_comm. symmetry. rewrite N.mul_comm. apply N.div_mod. discriminate.
  - reflexivity.
  - unfold all_zero in H. cbn [forallb] in H. rewrite !andb_true_iff in H. destruct H as (H1 & H2 & _).
    apply N.eqb_eq in H1, H2. rewrite (N.div_mod v 256) by discriminate. rewrite <- H1, <- H2. reflexivity.
Qed.

Lemma cell_closed : cell_clean = true.
Proof. reflexivity. Qed.
