(** * D-tie, slice forms: [_push_slice] with the four closures of [push_slice], [push_slice_init], [push_slice_clone],
      [push_slice_clone_init] = the Model's [push_slice]; [_extract_slice] with the closures of [copy_slice] / [clone_slice] = the
      Model's [extract_slice].  The element-wise loops of the source ([for (x, y) in a.iter_mut().zip(b)], [copy_from_slice_unchecked],
      [clone_from_slice]) are proved, by induction over the number of elements, to store exactly the Model's values into exactly
      the Model's slots; the ledger events agree as multisets (the crate clones and drops element by element, the Model lists
      clones first). *)
From Coq Require Import List Arith NArith Lia Permutation.
Import ListNotations.
Require Import MRB.Base.Ring MRB.Base.ListAux MRB.Model.Types MRB.Model.Seq MRB.Model.DataM.
Require Import MRB.gen.Kernels MRB.gen.DataFns MRB.Proofs.TapeFacts MRB.Proofs.DataTie.


Lemma sub_zero (l : list N) i : sub l i 0 = [].
Proof. reflexivity. Qed.
Lemma sub_all (l : list N) : sub l 0 (length l) = l.
Proof. unfold sub. simpl. apply firstn_all. Qed.
Lemma sub_firstn (l : list N) h : sub l 0 h = firstn h l.
Proof. reflexivity. Qed.
Lemma ids_app b n m : ids b (n + m) = ids b n ++ ids (b + N.of_nat n)%N m.
Proof.
  revert b. induction n as [|n IH]; intros b; simpl.
  - f_equal. lia.
  - f_equal. rewrite IH. f_equal. f_equal. lia.
Qed.
Lemma write_app (l : list N) i a b : write l i (a ++ b) = write (write l i a) (i + length a) b.
Proof. apply ListAux.write_app. Qed.

(** the element-wise interleaving of clone and store events *)
Fixpoint loop_evs (m : smode) (srcs news olds : list cell) : list lev :=
  match srcs, news, olds with
  | a :: sr, b :: nr, o :: olr => (if isz a then LZeroRead else LMake b) :: store_ev m o ++ loop_evs m sr nr olr
  | _, _, _ => []
  end.

Lemma loop_evs_perm m srcs : forall news olds, length news = length srcs -> length olds = length srcs ->
  Permutation (loop_evs m srcs news olds) (clone_evs srcs news ++ store_evs m olds).
Proof.
  induction srcs as [|a sr IH]; intros [|b nr] [|o olr] H1 H2; simpl in *; try lia; auto.
  constructor. rewrite (IH nr olr) by lia.
  rewrite !app_assoc. apply Permutation_app_tail. apply Permutation_app_comm.
Qed.

Lemma loop_evs_app m s1 n1 o1 s2 n2 o2 : length n1 = length s1 -> length o1 = length s1 ->
  loop_evs m (s1 ++ s2) (n1 ++ n2) (o1 ++ o2) = loop_evs m s1 n1 o1 ++ loop_evs m s2 n2 o2.
Proof.
  revert n1 o1. induction s1 as [|a sr IH]; intros [|b nr] [|o olr] H1 H2; simpl in *; try lia; auto.
  rewrite IH by lia. rewrite <- app_assoc. reflexivity.
Qed.

(** clone events without stores (extraction into the caller's destination) *)
Lemma clone_evs_app s1 : forall n1 s2 n2, length n1 = length s1 ->
  clone_evs (s1 ++ s2) (n1 ++ n2) = clone_evs s1 n1 ++ clone_evs s2 n2.
Proof. induction s1 as [|a sr IH]; intros [|b nr] s2 n2 H; simpl in *; try lia; auto. rewrite IH by lia. reflexivity. Qed.

(** the window test looks at the local part and at the NUMBER of cells only: stores keep it *)
Definition win_range (d : dst) (a n : nat) : Prop := forall i, a <= i < a + n -> in_window d i = true.
Lemma win_range_same d d' a n : d_l d' = d_l d -> length (d_slots d') = length (d_slots d) -> win_range d a n -> win_range d' a n.
Proof. intros H1 H2 H i Hi. unfold in_window. rewrite H1, H2. exact (H i Hi). Qed.
(** and what is left of a range after its first cell was stored to *)
Lemma win_range_step d d' a n : d_l d' = d_l d -> length (d_slots d') = length (d_slots d) -> win_range d a (S n) -> win_range d' (S a) n.
Proof. intros H1 H2 H. apply (win_range_same d); [exact H1 | exact H2 |]. intros i Hi. apply H. lia. Qed.

(** a granted window: the head run of [chunk] starts at the local index, its tail run at cell 0 *)
Lemma win_granted k s1 out n : wf k s1 -> n <= ca (it_of k s1) -> n <= mlen s1 ->
  let '(h, t) := chunk (mlen s1) (ix (it_of k s1)) n in
  win_range (view k s1 out) (ix (it_of k s1)) h /\ win_range (view k s1 out) 0 t.
Proof.
  intros [Hi _ Hl _ _] Hc Hn. pose proof (chunk_spec (mlen s1) (ix (it_of k s1)) n Hi Hn) as H.
  destruct (chunk (mlen s1) (ix (it_of k s1)) n) as [h t]. destruct H as (Hsum & Hoh & Hti & Hw).
  split; intros i Hr.
  - replace i with (ix (it_of k s1) + (i - ix (it_of k s1))) by lia. apply window_ahead. lia.
  - apply window_wrapped; lia.
Qed.

Section Loops.
Variable E : denv.
Local Notation srcl := (dn_src E).

(** the canonical body: read, clone, store in ledger mode [m] *)
Definition clone_body (m : smode) (src dst_ : sl) (j : nat) : DM unit :=
  v <~ rd E (sl_at src j) ;; c <~ clone_ E v ;; store_mode E m (sl_at dst_ j) c.

(** what an element-wise clone-and-store loop into the buffer leaves behind *)
Definition cloned_vals (nid0 : N) (srcs : list cell) : list cell := if dn_owned E then ids nid0 (length srcs) else srcs.
Definition cloned_nid (nid0 : N) (n : nat) : N := if dn_owned E then (nid0 + N.of_nat n)%N else nid0.

(** The two loops are stated for any body [f] that does what [clone_body] does WHERE IT IS RUN: on a cell inside the window, with an
    element inside the caller's slice.  What a closure would do elsewhere is never asked. *)
Lemma clone_loop_src_buf m so o N1 N2 (f : nat -> DM unit) n : forall j d,
  so + j + n <= length srcl -> o + j + n <= length (d_slots d) -> win_range d (o + j) n ->
  (forall j' d', j <= j' < j + n -> so + j' < length srcl -> o + j' < length (d_slots d') -> in_window d' (o + j') = true ->
     f j' d' = clone_body m (mkSl RSrc so N1) (mkSl RBuf o N2) j' d') ->
  for_n n j f d =
  Some (tt, mkD (d_l d) (write (d_slots d) (o + j) (cloned_vals (d_nid d) (sub srcl (so + j) n))) (d_pubs d)
                (d_evs d ++ (if dn_owned E then loop_evs m (sub srcl (so + j) n) (ids (d_nid d) n) (sub (d_slots d) (o + j) n) else []))
                (cloned_nid (d_nid d) n) (d_out d)).
Proof.
  unfold cloned_vals, cloned_nid.
  induction n as [|n IH]; intros j d H1 H2 HW Hf.
  - simpl. unfold dret. destruct d. cbn. destruct (dn_owned E); cbn; rewrite ?app_nil_r, ?N.add_0_r; reflexivity.
  - pose proof (HW (o + j) ltac:(lia)) as Hwj. cbn [for_n]. eapply run_step.
    { rewrite Hf; [| lia | lia | lia | exact Hwj]. unfold clone_body, sl_at. cbn [s_reg s_off]. steps. }
    norm. rewrite IH.
    2: lia.
    2:{ cbn [d_slots]. rewrite upd_length. lia. }
    2:{ replace (o + S j) with (S (o + j)) by lia. apply (win_range_step d); [reflexivity | apply upd_length | exact HW]. }
    2:{ intros j' d' Hj. apply Hf. lia. }
    cbn [d_slots d_l d_pubs d_evs d_nid d_out is_buf].
    rewrite !(sub_cons_nth 0%N srcl) by lia. rewrite (sub_cons_nth 0%N (d_slots d)) by lia.
    rewrite (sub_upd_after 0%N) by lia.
    replace (so + S j) with (S (so + j)) by lia. replace (o + S j) with (S (o + j)) by lia.
    cbn [length]; rewrite ?sub_length by lia.
    destruct (dn_owned E); cbn [length ids write loop_evs].
    + f_equal. f_equal. f_equal.
      * rewrite <- !app_assoc. reflexivity.
      * lia.
    + rewrite !app_nil_r. reflexivity.
Qed.

(** buffer -> caller's destination (what is dropped in the destination is the caller's) *)
Lemma clone_loop_buf_out m o oo N1 N2 (f : nat -> DM unit) n : forall j d,
  o + j + n <= length (d_slots d) -> oo + j + n <= length (d_out d) -> win_range d (o + j) n ->
  (forall j' d', j <= j' < j + n -> o + j' < length (d_slots d') -> in_window d' (o + j') = true -> oo + j' < length (d_out d') ->
     f j' d' = clone_body m (mkSl RBuf o N1) (mkSl RDst oo N2) j' d') ->
  for_n n j f d =
  Some (tt, mkD (d_l d) (d_slots d) (d_pubs d)
                (d_evs d ++ (if dn_owned E then clone_evs (sub (d_slots d) (o + j) n) (ids (d_nid d) n) else []))
                (cloned_nid (d_nid d) n)
                (write (d_out d) (oo + j) (cloned_vals (d_nid d) (sub (d_slots d) (o + j) n)))).
Proof.
  unfold cloned_vals, cloned_nid.
  induction n as [|n IH]; intros j d H1 H2 HW Hf.
  - simpl. unfold dret. destruct d. cbn. destruct (dn_owned E); cbn; rewrite ?app_nil_r, ?N.add_0_r; reflexivity.
  - pose proof (HW (o + j) ltac:(lia)) as Hwj. cbn [for_n]. eapply run_step.
    { rewrite Hf; [| lia | lia | exact Hwj | lia]. unfold clone_body, sl_at. cbn [s_reg s_off]. steps. }
    norm. rewrite IH.
    2:{ cbn [d_slots]. lia. }
    2:{ cbn [d_out]. rewrite upd_length. lia. }
    2:{ replace (o + S j) with (S (o + j)) by lia. apply (win_range_step d); [reflexivity | reflexivity | exact HW]. }
    2:{ intros j' d' Hj. apply Hf. lia. }
    cbn [d_slots d_l d_pubs d_evs d_nid d_out is_buf].
    rewrite !(sub_cons_nth 0%N (d_slots d)) by lia.
    replace (o + S j) with (S (o + j)) by lia. replace (oo + S j) with (S (oo + j)) by lia.
    cbn [length]; rewrite ?sub_length by lia.
    destruct (dn_owned E); cbn [length ids write clone_evs].
    + f_equal. f_equal. f_equal.
      * rewrite !app_nil_r. rewrite <- !app_assoc. reflexivity.
      * lia.
    + rewrite !app_nil_r. reflexivity.
Qed.

(** in plain mode a bitwise copy of an element does what the clone-and-store does *)
Lemma copy_src_buf m y x d : dn_owned E = false -> y < length srcl -> x < length (d_slots d) -> in_window d x = true ->
  (v <~ rd E (LSrc y) ;; st (LBuf x) v) d = (v <~ rd E (LSrc y) ;; c <~ clone_ E v ;; store_mode E m (LBuf x) c) d.
Proof.
  intros Hpl Hy Hx Hw. etransitivity; [steps|]. symmetry. etransitivity; [steps|].
  rewrite Hpl. norm. rewrite !app_nil_r. destruct d; reflexivity.
Qed.
Lemma copy_buf_out m x y d : dn_owned E = false -> x < length (d_slots d) -> in_window d x = true -> y < length (d_out d) ->
  (v <~ rd E (LBuf x) ;; st (LDst y) v) d = (v <~ rd E (LBuf x) ;; c <~ clone_ E v ;; store_mode E m (LDst y) c) d.
Proof.
  intros Hpl Hx Hw Hy. etransitivity; [steps|]. symmetry. etransitivity; [steps|].
  rewrite Hpl. norm. rewrite !app_nil_r. destruct d; reflexivity.
Qed.
End Loops.

Lemma sub_split (l : list N) h t : h + t = length l -> l = sub l 0 h ++ sub l h t.
Proof. intros H. rewrite <- (sub_all l) at 1. rewrite <- H. apply sub_app. Qed.
Lemma app_exact {A} (a b : list A) n : length a = n -> firstn n (a ++ b) = a /\ skipn n (a ++ b) = b.
Proof. intros <-. induction a as [|x a [IH1 IH2]]; [split; reflexivity|]. cbn. rewrite IH1, IH2. split; reflexivity. Qed.

(** clones of a concatenation: the identities go on where the first part stopped *)
Lemma cloned_vals_app E b x y : cloned_vals E b (x ++ y) = cloned_vals E b x ++ cloned_vals E (cloned_nid E b (length x)) y.
Proof. unfold cloned_vals, cloned_nid. destruct (dn_owned E); [|reflexivity]. rewrite app_length. apply ids_app. Qed.
Lemma cloned_vals_length E b x : length (cloned_vals E b x) = length x.
Proof. unfold cloned_vals. destruct (dn_owned E); [apply ids_length | reflexivity]. Qed.
Lemma cloned_nid_add E b a c : cloned_nid E (cloned_nid E b a) c = cloned_nid E b (a + c).
Proof. unfold cloned_nid. destruct (dn_owned E); [lia | reflexivity]. Qed.

(** what a closure handed to [_push_slice] must do with one contiguous run: clone-or-copy [c] elements of the caller's slice into [c]
    cells of the buffer, element by element, in ledger mode [m] *)
Definition run_effect (E : denv) (m : smode) (o so c : nat) (d : dst) : dst :=
  mkD (d_l d) (write (d_slots d) o (cloned_vals E (d_nid d) (sub (dn_src E) so c))) (d_pubs d)
      (d_evs d ++ (if dn_owned E then loop_evs m (sub (dn_src E) so c) (ids (d_nid d) c) (sub (d_slots d) o c) else []))
      (cloned_nid E (d_nid d) c) (d_out d).

Definition store_spec (E : denv) (m : smode) (f : sl -> sl -> DM unit) : Prop :=
  forall o so c d, so + c <= length (dn_src E) -> o + c <= length (d_slots d) -> win_range d o c ->
    f (mkSl RBuf o c) (mkSl RSrc so c) d = Some (tt, run_effect E m o so c d).

Lemma win_range_run_effect E m o so c d a n : win_range d a n -> win_range (run_effect E m o so c d) a n.
Proof. apply win_range_same; [reflexivity | apply write_length]. Qed.

Lemma run_effect_none E m o so d : run_effect E m o so 0 d = d.
Proof. unfold run_effect, cloned_vals, cloned_nid. destruct d, (dn_owned E); cbn; rewrite ?app_nil_r, ?N.add_0_r; reflexivity. Qed.

(** the head run from cell [i] and then the tail run from cell 0, over the whole of the caller's slice: the ring write of all the clones,
    with the ledger of one loop over all elements *)
Lemma run_effect_twice E m i h t d : h + t = length (dn_src E) -> t <= i -> i + h <= length (d_slots d) ->
  run_effect E m 0 h t (run_effect E m i 0 h d) =
  mkD (d_l d)
      (write (write (d_slots d) i (firstn h (cloned_vals E (d_nid d) (dn_src E)))) 0 (skipn h (cloned_vals E (d_nid d) (dn_src E))))
      (d_pubs d)
      (d_evs d ++ (if dn_owned E then loop_evs m (dn_src E) (ids (d_nid d) (h + t)) (sub (d_slots d) i h ++ sub (d_slots d) 0 t) else []))
      (cloned_nid E (d_nid d) (h + t)) (d_out d).
Proof.
  intros Hs Ht Hi. unfold run_effect. cbn [d_l d_slots d_pubs d_evs d_nid d_out].
  rewrite (sub_write_before 0%N) by (rewrite ?cloned_vals_length, ?sub_length; lia). rewrite cloned_nid_add, <- app_assoc.
  pose proof (sub_split _ h t Hs) as Hsrc.
  assert (Hx : length (sub (dn_src E) 0 h) = h) by (apply sub_length; lia).
  set (x := sub (dn_src E) 0 h) in *. set (y := sub (dn_src E) h t) in *. clearbody x y. rewrite Hsrc.
  rewrite cloned_vals_app, Hx.
  destruct (app_exact (cloned_vals E (d_nid d) x) (cloned_vals E (cloned_nid E (d_nid d) h) y) h) as [-> ->].
  { rewrite cloned_vals_length. exact Hx. }
  f_equal. f_equal. unfold cloned_nid. destruct (dn_owned E); [|reflexivity].
  rewrite ids_app, loop_evs_app by (rewrite ?ids_length, ?sub_length by lia; auto). reflexivity.
Qed.

Lemma wr_eq s i vs h t : chunk (mlen s) i (length vs) = (h, t) ->
  wr s i vs = set_slots (write (write (slots s) i (firstn h vs)) 0 (skipn h vs)) s.
Proof. intros H. unfold wr. rewrite H. reflexivity. Qed.

Section PushSlice.
Variables (s : mstate) (vs out : list cell).
Hypothesis Hwf : wf P s.
Hypothesis Hatt : det (it_of P s) = false.
Local Notation E := (denv_of P s vs).
Local Notation n := (length vs).

Definition push_slice_res (m : smode) (cl : bool) (r : option unit) (d : dst) : Prop :=
  let '(s', (o, evs)) := push_slice m cl vs s in
  agrees P s' (match r with Some _ => [tP (pub s')] | None => [] end) evs d /\ d_out d = out /\
  match r, o with Some _, OOk => True | None, ONone => True | _, _ => False end.

(** a granted [_push_slice], whichever way the closure was run over the window (two slices or one mirrored slice): the two runs and
    [advance] leave the Model's result *)
Lemma push_slice_granted m cl s1 : check P n s = (true, s1) -> (cl = false -> owned s = false) ->
  exists d,
    lift (g_advance (env_of P s) n)
         (let '(h, t) := chunk (mlen s) (ix (it_of P s1)) n in
          run_effect E m 0 h t (run_effect E m (ix (it_of P s1)) 0 h (view P s1 out))) = Some (tt, d) /\
    push_slice_res m cl (Some tt) d.
Proof.
  intros Ck Hcl. destruct (check_spec P n s Hwf) as (Hwf1 & A & B & Nd & Ow & He & Dt & Hg). rewrite Ck in *. cbn [fst snd] in *.
  destruct (Hg eq_refl) as [_ Hn]. rewrite Hatt in Dt. clear Hg.
  pose proof (chunk_spec (mlen s) (ix (it_of P s1)) n) as Hc.
  unfold push_slice_res, push_slice. rewrite Ck. unfold Seq.rd. rewrite B.
  destruct (chunk (mlen s) (ix (it_of P s1)) n) as [h t] eqn:Ch.
  destruct Hc as (Hsum & Hoh & Hti & _); [destruct Hwf1; lia | exact Hn |].
  rewrite run_effect_twice by (cbn [dn_src denv_of view d_slots]; rewrite ?A; destruct Hwf; lia).
  unfold view. cbn [d_l d_slots d_pubs d_evs d_nid d_out dn_src dn_owned denv_of]. rewrite Hsum.
  rewrite (lift_advance P n s s1); [| exact Hwf1 | lia | symmetry; exact He | reflexivity].
  cbn [d_slots d_pubs d_evs d_nid d_out]. eexists. split; [reflexivity|].
  unfold clones, cloned_vals, cloned_nid. cbn [dn_owned denv_of]. rewrite Ow.
  destruct (owned s) eqn:Own.
  - assert (cl = true) by (destruct cl; [reflexivity | discriminate (Hcl eq_refl)]). subst cl.
    rewrite (wr_eq _ _ _ h t) by (rewrite ids_length; cbn [mlen set_nid]; rewrite B; exact Ch).
    unfold rete. rewrite ev_advance. cbn [owned set_slots set_nid]. rewrite Ow.
    split; [|split; [reflexivity | exact I]].
    apply agrees_advance; [exact Dt | reflexivity |]. cbn [d_evs app].
    apply loop_evs_perm; rewrite ?ids_length, ?app_length, ?sub_length by (rewrite ?A; destruct Hwf; lia); lia.
  - replace (if cl then (vs, s1) else (vs, s1)) with (vs, s1) by (destruct cl; reflexivity).
    rewrite (wr_eq _ _ _ h t) by (rewrite B; exact Ch).
    unfold rete. rewrite ev_advance. cbn [owned set_slots]. rewrite Ow.
    split; [|split; [reflexivity | exact I]].
    apply agrees_advance; [exact Dt | reflexivity | constructor].
Qed.

Theorem push_slice_generic (m : smode) (cl : bool) (f : sl -> sl -> DM unit) :
  store_spec E m f -> (cl = false -> owned s = false) ->
  exists r d, drun (d__push_slice E (src_sl E) f) (view P s out) = Some (r, d) /\ push_slice_res m cl r d.
Proof.
  intros Hf Hcl. unfold d__push_slice, d_advance, src_sl, drun. cbn [s_len dn_src dn_E denv_of].
  unfold dbind at 1. rewrite (next_chunk_mut_run P s vs out n Hwf).
  destruct (check_spec P n s Hwf) as (Hwf1 & _ & B & _ & _ & _ & _ & Hg).
  destruct (check P n s) as [[] s1] eqn:Ck; rewrite (chunk_grant_eq P s out n _ _ Ck); cbn [fst snd] in *.
  2:{ unfold push_slice_res, push_slice, dbind, dret. rewrite Ck. eexists _, _. split; [reflexivity|].
      split; [apply agrees_view | split; [reflexivity | exact I]]. }
  destruct (Hg eq_refl) as [Hg1 Hn]. clear Hg.
  pose proof (win_granted P s1 out n Hwf1 Hg1) as HW. destruct Hwf1 as [Hi _ Hl _ _]. rewrite B in *.
  pose proof (chunk_spec (mlen s) (ix (it_of P s1)) n Hi Hn) as Hc.
  destruct (chunk (mlen s) (ix (it_of P s1)) n) as [h t] eqn:Ch. destruct (HW Hn) as [WH WT]. destruct Hc as (Hsum & Hoh & Hti & _).
  cbn [fst snd s_len]. unfold sl_prefix, sl_suffix, dbind, dret. cbn [s_len s_reg s_off].
  destruct (Nat.eqb_spec h n) as [Hh|Hh].
  - assert (t = 0) by lia. subst t h.
    rewrite (Hf (ix (it_of P s1)) 0 n); [| cbn [dn_src denv_of]; lia | cbn [view d_slots]; lia | exact WH].
    destruct (push_slice_granted m cl s1 Ck Hcl) as (d & Ra & Res). rewrite Ch, run_effect_none in Ra.
    rewrite Ra. eexists _, _. split; [reflexivity | exact Res].
  - rewrite (leb_correct h n) by lia.
    rewrite (Hf (ix (it_of P s1)) 0 h); [| cbn [dn_src denv_of]; lia | cbn [view d_slots]; lia | exact WH].
    replace (n - h) with t by lia.
    rewrite (Hf 0 h t); [| cbn [dn_src denv_of]; lia | unfold run_effect; cbn [view d_slots]; rewrite write_length; lia
                         | apply win_range_run_effect; exact WT].
    destruct (push_slice_granted m cl s1 Ck Hcl) as (d & Ra & Res). rewrite Ch in Ra.
    rewrite Ra. eexists _, _. split; [reflexivity | exact Res].
Qed.
End PushSlice.

(** ** the four closures of the producer's slice methods satisfy [store_spec] *)
Section Closures.
Variable E : denv.

(** [copy_from_slice_unchecked(slice, binding)] *)
Lemma spec_copy m (f : sl -> sl -> DM unit) : dn_owned E = false ->
  (forall a b d, f a b d = (v <~ copy_from_slice_unchecked E b a ;; dret tt) d) -> store_spec E m f.
Proof.
  intros Hpl Hf o so c d H1 H2 HW. rewrite Hf, pass_on_unit. unfold copy_from_slice_unchecked. cbn [s_len]. rewrite Nat.leb_refl.
  rewrite (clone_loop_src_buf E m so o c c); [| lia | lia | rewrite Nat.add_0_r; exact HW |].
  2:{ intros. unfold clone_body, sl_at. cbn [s_reg s_off]. apply copy_src_buf; assumption. }
  unfold run_effect. rewrite !Nat.add_0_r. reflexivity.
Qed.

(** [binding.clone_from_slice(slice)] *)
Lemma spec_clone (f : sl -> sl -> DM unit) :
  (forall a b d, f a b d = (v <~ clone_from_slice E a b ;; dret tt) d) -> store_spec E SAssign f.
Proof.
  intros Hf o so c d H1 H2 HW. rewrite Hf, pass_on_unit. unfold clone_from_slice. cbn [s_len]. rewrite Nat.eqb_refl.
  rewrite (clone_loop_src_buf E SAssign so o c c); [| lia | lia | rewrite Nat.add_0_r; exact HW | intros; reflexivity].
  unfold run_effect. rewrite !Nat.add_0_r. reflexivity.
Qed.

(** a loop [for (x, y) in binding.iter_mut().zip(slice) { body }] whose body does, on a cell it may touch, what the canonical one does *)
Lemma spec_zip m (f : sl -> sl -> DM unit) (body : loc -> loc -> DM unit) :
  (forall a b d, f a b d = (for_zip a b body ;;~ dret tt) d) ->
  (forall x y d, x < length (d_slots d) -> in_window d x = true -> y < length (dn_src E) ->
     body (LBuf x) (LSrc y) d = (v <~ rd E (LSrc y) ;; c <~ clone_ E v ;; store_mode E m (LBuf x) c) d) ->
  store_spec E m f.
Proof.
  intros Hf Hb o so c d H1 H2 HW. rewrite Hf, pass_on_unit. unfold for_zip. cbn [s_len]. rewrite Nat.min_id.
  rewrite (clone_loop_src_buf E m so o c c); [| lia | lia | rewrite Nat.add_0_r; exact HW |].
  2:{ intros. unfold sl_at. cbn [s_reg s_off]. apply Hb; assumption. }
  unfold run_effect. rewrite !Nat.add_0_r. reflexivity.
Qed.
End Closures.

(** the body of an [_init] closure against the canonical one: run the canonical one, then the body up to its emptiness test, then both
    of its branches *)
Ltac init_body x d :=
  symmetry; (etransitivity; [steps|]); symmetry; steps;
  destruct (isz (nth x (d_slots d) 0%N)) eqn:Z; steps; unfold store_ev; rewrite Z.

Section PushSliceTies.
Variables (s : mstate) (vs out : list cell).
Hypothesis Hwf : wf P s.
Hypothesis Hatt : det (it_of P s) = false.
Local Notation E := (denv_of P s vs).

Theorem tie_push_slice : owned s = false ->
  exists r d, drun (d_push_slice E (src_sl E)) (view P s out) = Some (r, d) /\ push_slice_res s vs out SCopy false r d.
Proof.
  intros Hpl. unfold d_push_slice. to_call. apply (push_slice_generic s vs out Hwf Hatt SCopy false); [|intros _; exact Hpl].
  apply spec_copy; [exact Hpl | intros; reflexivity].
Qed.

Theorem tie_push_slice_clone :
  exists r d, drun (d_push_slice_clone E (src_sl E)) (view P s out) = Some (r, d) /\ push_slice_res s vs out SAssign true r d.
Proof.
  unfold d_push_slice_clone. to_call. apply (push_slice_generic s vs out Hwf Hatt SAssign true); [|discriminate].
  apply spec_clone; intros; reflexivity.
Qed.

Theorem tie_push_slice_clone_init :
  exists r d, drun (d_push_slice_clone_init E (src_sl E)) (view P s out) = Some (r, d) /\ push_slice_res s vs out SInit true r d.
Proof.
  unfold d_push_slice_clone_init. to_call. apply (push_slice_generic s vs out Hwf Hatt SInit true); [|discriminate].
  eapply spec_zip; [intros; reflexivity|]. intros x y d Hx Hw Hy. init_body x d; reflexivity.
Qed.

Theorem tie_push_slice_init : owned s = false ->
  exists r d, drun (d_push_slice_init E (src_sl E)) (view P s out) = Some (r, d) /\ push_slice_res s vs out SCopy false r d.
Proof.
  intros Hpl. unfold d_push_slice_init. to_call. apply (push_slice_generic s vs out Hwf Hatt SCopy false); [|intros _; exact Hpl].
  eapply spec_zip; [intros; reflexivity|]. intros x y d Hx Hw Hy. init_body x d;
  cbn [dn_owned denv_of]; rewrite Hpl; norm; rewrite ?app_nil_r; reflexivity.
Qed.
End PushSliceTies.

(** ** [_extract_slice] *)
Lemma upd_mid (pre : list N) x y rest : upd (length pre) x (pre ++ y :: rest) = pre ++ x :: rest.
Proof. induction pre; simpl; auto. f_equal. auto. Qed.

Lemma write_mid (a : list N) : forall pre l post, length l = length a -> write (pre ++ l ++ post) (length pre) a = pre ++ a ++ post.
Proof.
  induction a as [|x a IH]; intros pre [|y l] post H; simpl in *; try lia; auto.
  rewrite upd_mid.
  replace (pre ++ x :: l ++ post) with ((pre ++ [x]) ++ l ++ post) by (rewrite <- app_assoc; reflexivity).
  replace (S (length pre)) with (length (pre ++ [x])) by (rewrite app_length; simpl; lia).
  rewrite IH by lia. rewrite <- app_assoc. reflexivity.
Qed.

Lemma write_over (pre l a : list N) : length l = length a -> write (pre ++ l) (length pre) a = pre ++ a.
Proof. intros H. pose proof (write_mid a pre l [] H) as W. rewrite !app_nil_r in W. exact W. Qed.

Lemma write_two (outl a b : list N) : length outl = length a + length b ->
  write (write outl 0 a) (length a) b = a ++ b.
Proof.
  intros H.
  assert (Hs : outl = firstn (length a) outl ++ skipn (length a) outl) by (symmetry; apply firstn_skipn).
  assert (L1 : length (firstn (length a) outl) = length a) by (rewrite firstn_length; lia).
  assert (L2 : length (skipn (length a) outl) = length b) by (rewrite skipn_length; lia).
  rewrite Hs at 1.
  pose proof (write_mid a [] (firstn (length a) outl) (skipn (length a) outl) L1) as W1. cbn [app length] in W1.
  rewrite W1. apply write_over. exact L2.
Qed.

Definition xrun_effect (E : denv) (o oo c : nat) (d : dst) : dst :=
  mkD (d_l d) (d_slots d) (d_pubs d)
      (d_evs d ++ (if dn_owned E then clone_evs (sub (d_slots d) o c) (ids (d_nid d) c) else []))
      (cloned_nid E (d_nid d) c)
      (write (d_out d) oo (cloned_vals E (d_nid d) (sub (d_slots d) o c))).

Definition extract_spec (E : denv) (f : sl -> sl -> DM unit) : Prop :=
  forall o oo c d, o + c <= length (d_slots d) -> oo + c <= length (d_out d) -> win_range d o c ->
    f (mkSl RBuf o c) (mkSl RDst oo c) d = Some (tt, xrun_effect E o oo c d).

Lemma win_range_xrun_effect E o oo c d a n : win_range d a n -> win_range (xrun_effect E o oo c d) a n.
Proof. apply win_range_same; reflexivity. Qed.

Lemma xrun_effect_none E o oo d : xrun_effect E o oo 0 d = d.
Proof. unfold xrun_effect, cloned_vals, cloned_nid. destruct d, (dn_owned E); cbn; rewrite ?app_nil_r, ?N.add_0_r; reflexivity. Qed.

(** head run then tail run into a destination they fill exactly: the clones of the window's cells, head first *)
Lemma xrun_effect_twice E i h t d : h + t = length (d_out d) -> i + h <= length (d_slots d) -> t <= length (d_slots d) ->
  xrun_effect E 0 h t (xrun_effect E i 0 h d) =
  mkD (d_l d) (d_slots d) (d_pubs d)
      (d_evs d ++ (if dn_owned E then clone_evs (sub (d_slots d) i h ++ sub (d_slots d) 0 t) (ids (d_nid d) (h + t)) else []))
      (cloned_nid E (d_nid d) (h + t)) (cloned_vals E (d_nid d) (sub (d_slots d) i h ++ sub (d_slots d) 0 t)).
Proof.
  intros Ho Hi Ht. unfold xrun_effect. cbn [d_l d_slots d_pubs d_evs d_nid d_out].
  rewrite cloned_nid_add, <- app_assoc, cloned_vals_app.
  assert (Hx : length (sub (d_slots d) i h) = h) by (apply sub_length; exact Hi).
  assert (Hy : length (sub (d_slots d) 0 t) = t) by (apply sub_length; exact Ht).
  set (x := sub (d_slots d) i h) in *. set (y := sub (d_slots d) 0 t) in *. rewrite Hx.
  pose proof (write_two (d_out d) (cloned_vals E (d_nid d) x) (cloned_vals E (cloned_nid E (d_nid d) h) y)) as W.
  rewrite !cloned_vals_length, Hx, Hy in W. rewrite W by (symmetry; exact Ho).
  f_equal. f_equal. unfold cloned_nid. destruct (dn_owned E); [|reflexivity].
  rewrite ids_app, clone_evs_app by (rewrite ids_length; auto). reflexivity.
Qed.

Section ExtractSlice.
Variables (s : mstate) (src out : list cell).
Hypothesis Hwf : wf C s.
Hypothesis Hatt : det (it_of C s) = false.
Local Notation E := (denv_of C s src).
Local Notation n := (length out).

Definition extract_slice_res (cl : bool) (r : option unit) (d : dst) : Prop :=
  let '(s', (o, evs)) := extract_slice cl n s in
  agrees C s' (match r with Some _ => [tC (pub s')] | None => [] end) evs d /\
  match r, o with Some _, ODst news => d_out d = news | None, ONone => d_out d = out | _, _ => False end.

Lemma extract_slice_granted cl s1 : check C n s = (true, s1) -> (cl = false -> owned s = false) ->
  exists d,
    lift (g_advance (env_of C s) n)
         (let '(h, t) := chunk (mlen s) (ix (it_of C s1)) n in
          xrun_effect E 0 h t (xrun_effect E (ix (it_of C s1)) 0 h (view C s1 out))) = Some (tt, d) /\
    extract_slice_res cl (Some tt) d.
Proof.
  intros Ck Hcl. destruct (check_spec C n s Hwf) as (Hwf1 & A & B & Nd & Ow & He & Dt & Hg). rewrite Ck in *. cbn [fst snd] in *.
  destruct (Hg eq_refl) as [_ Hn]. rewrite Hatt in Dt. clear Hg.
  pose proof (chunk_spec (mlen s) (ix (it_of C s1)) n) as Hc.
  unfold extract_slice_res, extract_slice. rewrite Ck. unfold Seq.rd. rewrite B.
  destruct (chunk (mlen s) (ix (it_of C s1)) n) as [h t] eqn:Ch.
  destruct Hc as (Hsum & Hoh & Hti & _); [destruct Hwf1; lia | exact Hn |].
  rewrite xrun_effect_twice by (cbn [view d_slots d_out]; destruct Hwf1; lia).
  unfold view. cbn [d_l d_slots d_pubs d_evs d_nid d_out dn_owned denv_of]. rewrite Hsum.
  rewrite (lift_advance C n s s1); [| exact Hwf1 | lia | symmetry; exact He | reflexivity].
  cbn [d_slots d_pubs d_evs d_nid d_out]. eexists. split; [reflexivity|].
  set (olds := sub (slots s1) (ix (it_of C s1)) h ++ sub (slots s1) 0 t).
  assert (Hol : length olds = n) by (unfold olds; rewrite app_length, !sub_length by (destruct Hwf1; lia); exact Hsum).
  unfold clones, cloned_vals, cloned_nid. cbn [dn_owned denv_of]. rewrite Ow, Hol.
  destruct (owned s) eqn:Own.
  - assert (cl = true) by (destruct cl; [reflexivity | discriminate (Hcl eq_refl)]). subst cl.
    unfold rete. rewrite ev_advance. cbn [owned set_nid]. rewrite Ow.
    split; [|reflexivity].
    apply agrees_advance; [exact Dt | reflexivity | apply Permutation_refl].
  - replace (if cl then (olds, s1) else (olds, s1)) with (olds, s1) by (destruct cl; reflexivity).
    unfold rete. rewrite ev_advance, Ow.
    split; [|reflexivity].
    apply agrees_advance; [exact Dt | reflexivity | constructor].
Qed.

Theorem extract_slice_generic (cl : bool) (f : sl -> sl -> DM unit) :
  extract_spec E f -> (cl = false -> owned s = false) ->
  exists r d, drun (d__extract_slice E (mkSl RDst 0 n) f) (view C s out) = Some (r, d) /\ extract_slice_res cl r d.
Proof.
  intros Hf Hcl. unfold d__extract_slice, d_advance, drun. cbn [s_len dn_E denv_of].
  unfold dbind at 1. rewrite (next_chunk_mut_run C s src out n Hwf).
  destruct (check_spec C n s Hwf) as (Hwf1 & _ & B & _ & _ & _ & _ & Hg).
  destruct (check C n s) as [[] s1] eqn:Ck; rewrite (chunk_grant_eq C s out n _ _ Ck); cbn [fst snd] in *.
  2:{ unfold extract_slice_res, extract_slice, dbind, dret. rewrite Ck. eexists _, _. split; [reflexivity|].
      split; [apply agrees_view | reflexivity]. }
  destruct (Hg eq_refl) as [Hg1 Hn]. clear Hg.
  pose proof (win_granted C s1 out n Hwf1 Hg1) as HW. destruct Hwf1 as [Hi _ Hl _ _]. rewrite B in *.
  pose proof (chunk_spec (mlen s) (ix (it_of C s1)) n Hi Hn) as Hc.
  destruct (chunk (mlen s) (ix (it_of C s1)) n) as [h t] eqn:Ch. destruct (HW Hn) as [WH WT]. destruct Hc as (Hsum & Hoh & Hti & _).
  cbn [fst snd s_len]. unfold sl_prefix, sl_suffix, dbind, dret. cbn [s_len s_reg s_off].
  destruct (Nat.eqb_spec h n) as [Hh|Hh].
  - assert (t = 0) by lia. subst t h.
    rewrite (Hf (ix (it_of C s1)) 0 n); [| cbn [view d_slots]; lia | cbn [view d_out]; lia | exact WH].
    destruct (extract_slice_granted cl s1 Ck Hcl) as (d & Ra & Res). rewrite Ch, xrun_effect_none in Ra.
    rewrite Ra. eexists _, _. split; [reflexivity | exact Res].
  - rewrite (leb_correct h n) by lia.
    rewrite (Hf (ix (it_of C s1)) 0 h); [| cbn [view d_slots]; lia | cbn [view d_out]; lia | exact WH].
    replace (n - h) with t by lia.
    rewrite (Hf 0 h t); [| unfold xrun_effect; cbn [view d_slots]; lia | unfold xrun_effect; cbn [view d_out]; rewrite write_length; lia
                         | apply win_range_xrun_effect; exact WT].
    destruct (extract_slice_granted cl s1 Ck Hcl) as (d & Ra & Res). rewrite Ch in Ra.
    rewrite Ra. eexists _, _. split; [reflexivity | exact Res].
Qed.
End ExtractSlice.

Section ExtractClosures.
Variable E : denv.

Lemma xspec_copy (f : sl -> sl -> DM unit) : dn_owned E = false ->
  (forall a b d, f a b d = (v <~ copy_from_slice_unchecked E a b ;; dret tt) d) -> extract_spec E f.
Proof.
  intros Hpl Hf o oo c d H1 H2 HW. rewrite Hf, pass_on_unit. unfold copy_from_slice_unchecked. cbn [s_len]. rewrite Nat.leb_refl.
  rewrite (clone_loop_buf_out E SAssign o oo c c); [| lia | lia | rewrite Nat.add_0_r; exact HW |].
  2:{ intros. unfold clone_body, sl_at. cbn [s_reg s_off]. apply copy_buf_out; assumption. }
  unfold xrun_effect. rewrite !Nat.add_0_r. reflexivity.
Qed.

Lemma xspec_clone (f : sl -> sl -> DM unit) :
  (forall a b d, f a b d = (v <~ clone_from_slice E b a ;; dret tt) d) -> extract_spec E f.
Proof.
  intros Hf o oo c d H1 H2 HW. rewrite Hf, pass_on_unit. unfold clone_from_slice. cbn [s_len]. rewrite Nat.eqb_refl.
  rewrite (clone_loop_buf_out E SAssign o oo c c); [| lia | lia | rewrite Nat.add_0_r; exact HW | intros; reflexivity].
  unfold xrun_effect. rewrite !Nat.add_0_r. reflexivity.
Qed.
End ExtractClosures.

Section ExtractSliceTies.
Variables (s : mstate) (src out : list cell).
Hypothesis Hwf : wf C s.
Hypothesis Hatt : det (it_of C s) = false.
Local Notation E := (denv_of C s src).

Theorem tie_copy_slice : owned s = false ->
  exists r d, drun (d_copy_slice E (mkSl RDst 0 (length out))) (view C s out) = Some (r, d) /\ extract_slice_res s out false r d.
Proof.
  intros Hpl. unfold d_copy_slice. to_call. apply (extract_slice_generic s src out Hwf Hatt false); [|intros _; exact Hpl].
  apply xspec_copy; [exact Hpl | intros; reflexivity].
Qed.

Theorem tie_clone_slice :
  exists r d, drun (d_clone_slice E (mkSl RDst 0 (length out))) (view C s out) = Some (r, d) /\ extract_slice_res s out true r d.
Proof.
  unfold d_clone_slice. to_call. apply (extract_slice_generic s src out Hwf Hatt true); [|discriminate].
  apply xspec_clone; intros; reflexivity.
Qed.
End ExtractSliceTies.

Theorem data_closed : DataFns.data_clean = true.
Proof. reflexivity. Qed.
