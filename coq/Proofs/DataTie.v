(** * D-tie: the DATA-TOUCHING functions TRANSLATED FROM THE RUST SOURCE on every run (gen/DataFns.v) do, for all inputs, exactly
      what the functions of the executable Model do (Model/Seq.v: [grant_one], [grant], [push], [push_slice], [pop],
      [extract_item], [extract_slice] and the [step] cases built from them) - same result, same cells, same local index and
      remembered availability, same publications, same clone identities, the same ledger events (as a multiset for the slice
      forms: the crate interleaves per element what the Model lists per kind) - and never hit undefined behaviour
      (out-of-bounds pointer arithmetic, a slice that leaves the allocation, unchecked overflow).
      Preconditions ([wf]): the iterator's index and its successor's published index lie below [len], the cell array has [len]
      cells, [2*len] is representable, the remembered availability is at most [len]. *)
From Coq Require Import List Arith NArith Bool Lia Permutation.
Import ListNotations.
Require Import MRB.Base.Ring MRB.Base.ListAux MRB.Model.Types MRB.Model.Seq MRB.Model.KernelM MRB.Model.DataM.
Require Import MRB.gen.Kernels MRB.gen.DataFns MRB.Proofs.TapeFacts MRB.Proofs.KernelTie.

Opaque usize_max.

(** the iterator's own [_available], as translated *)
Definition avail_kernel (k : stage) (E : env) : M nat :=
  match k with P => g_prod_available E | W => g_work_available E | C => g_cons_available E end.

Definition env_of (k : stage) (s : mstate) : env := mkE (succ_idx k s) (mlen s).
Definition denv_of (k : stage) (s : mstate) (src : list cell) : denv :=
  mkDE (env_of k s) (avail_kernel k (env_of k s)) (owned s) src.
Definition local_of (k : stage) (s : mstate) : lst := mkL (ix (it_of k s)) (ca (it_of k s)).
(** what the translated code sees of a Model state *)
Definition view (k : stage) (s : mstate) (out : list cell) : dst :=
  mkD (local_of k s) (slots s) [] [] (nid s) out.

Record wf (k : stage) (s : mstate) : Prop := mkWf {
  wf_ix : ix (it_of k s) < mlen s;
  wf_succ : succ_idx k s < mlen s;
  wf_slots : length (slots s) = mlen s;
  wf_max : mlen s + mlen s < usize_max;
  wf_ca : ca (it_of k s) <= mlen s        (* the remembered availability never exceeds the true one (Rel, I3), which is below len *)
}.

(** ** the Model's [refresh] and [check]: the state they leave is the old one with another remembered availability *)
Lemma fresh_le_len k s : wf k s -> fresh k s <= mlen s.
Proof. intros [H1 H2 _ _ _]. unfold fresh, avail_of, pavail, dist. destruct k; cases; lia. Qed.

Lemma wf_refresh k s : wf k s -> wf k (fst (refresh k s)).
Proof.
  intros Hwf. pose proof (fresh_le_len k s Hwf) as Hf. destruct Hwf as [H1 H2 H3 H4 _].
  unfold refresh. cbn [fst]. constructor; rewrite ?it_set_ca; assumption.
Qed.

(** a granted request of [n] leaves at least [n] in the remembered availability: the window the iterator holds covers what it asked for *)
Lemma check_grants k n s s1 : check k n s = (true, s1) -> n <= ca (it_of k s1).
Proof.
  unfold check, refresh. destruct (n <=? ca (it_of k s)) eqn:E0; intros H; inversion H; subst.
  - apply Nat.leb_le. exact E0.
  - rewrite it_set_ca. apply Nat.leb_le. assumption.
Qed.

(** all that a caller needs to know of the state [check] leaves *)
Lemma check_spec k n s : wf k s ->
  let c := check k n s in
  wf k (snd c) /\ slots (snd c) = slots s /\ mlen (snd c) = mlen s /\ nid (snd c) = nid s /\ owned (snd c) = owned s /\
  env_of k (snd c) = env_of k s /\ det (it_of k (snd c)) = det (it_of k s) /\
  (fst c = true -> n <= ca (it_of k (snd c)) /\ n <= mlen s).
Proof.
  intros Hwf c. unfold c, check, refresh.
  destruct (n <=? ca (it_of k s)) eqn:E0; cbn [fst snd].
  - split; [exact Hwf|]. do 6 (split; [reflexivity|]). intros _. apply Nat.leb_le in E0. destruct Hwf. lia.
  - split; [exact (wf_refresh k s Hwf)|]. rewrite it_set_ca. do 6 (split; [reflexivity|]).
    intros G. apply Nat.leb_le in G. pose proof (fresh_le_len k s Hwf). cbn [ca]. lia.
Qed.

Lemma chunk_spec len o n : o < len -> n <= len ->
  let '(h, t) := chunk len o n in h + t = n /\ o + h <= len /\ t <= o /\ (t = 0 \/ o + h = len).
Proof. intros Ho Hn. unfold chunk. destruct (Nat.leb_spec len (o + n)); lia. Qed.

(** the Model's [advance] of an attached iterator, componentwise *)
Lemma advance_attached k n s : det (it_of k s) = false ->
  local_of k (advance k n s) = mkL (wadd (mlen s) (ix (it_of k s)) n) (ca (it_of k s) - n) /\
  tget k (pub (advance k n s)) = wadd (mlen s) (ix (it_of k s)) n /\
  slots (advance k n s) = slots s /\ nid (advance k n s) = nid s.
Proof.
  intros D. unfold advance, local_of. rewrite D. unfold set_pub, set_ix_ca, set_it, it_of. cbn.
  rewrite !tget_tset_same. cbn. repeat split.
Qed.

Lemma ev_advance k n s l : ev (advance k n s) l = if owned s then l else [].
Proof. unfold ev, advance. destruct (det (it_of k s)); reflexivity. Qed.

(** ** how a translated run and a Model result agree *)
Record agrees (k : stage) (s' : mstate) (pubs : list nat) (evs : list lev) (d : dst) : Prop := mkAg {
  ag_l : d_l d = local_of k s';
  ag_slots : d_slots d = slots s';
  ag_pubs : d_pubs d = pubs;
  ag_evs : Permutation (d_evs d) evs;
  ag_nid : d_nid d = nid s'
}.

Lemma agrees_view k s out : agrees k s [] [] (view k s out).
Proof. constructor; reflexivity. Qed.

(** what the translated [advance] leaves is the Model's [advance] of any state with these cells and this clone counter *)
Lemma agrees_advance k n s evs d : det (it_of k s) = false ->
  d = mkD (mkL (wadd (mlen s) (ix (it_of k s)) n) (ca (it_of k s) - n)) (slots s) [wadd (mlen s) (ix (it_of k s)) n] (d_evs d) (nid s) (d_out d) ->
  Permutation (d_evs d) evs ->
  agrees k (advance k n s) [tget k (pub (advance k n s))] evs d.
Proof.
  intros D -> Hp. destruct (advance_attached k n s D) as (L & Pu & Sl & Ni).
  constructor; cbn [d_l d_slots d_pubs d_evs d_nid] in *; congruence.
Qed.

(** ** running a translated body
    The proofs do not depend on how the translator nests its binds or how the source spells a test: [assoc_step] brings the next
    call to the head, [run_step] replaces it by what its run equation says, every comparison is decided by [lia]. *)
Lemma assoc_step {A B C} (m : DM A) (k1 : A -> DM B) (k2 : B -> DM C) d r :
  dbind m (fun x => dbind (k1 x) k2) d = r -> dbind (dbind m k1) k2 d = r.
Proof. intros <-. unfold dbind. destruct (m d) as [[x d']|]; reflexivity. Qed.
Lemma run_step {A B} (m : DM A) (k : A -> DM B) d x d' r : m d = Some (x, d') -> k x d' = r -> dbind m k d = r.
Proof. intros H <-. unfold dbind. rewrite H. reflexivity. Qed.

Lemma ltb_true a b : a < b -> (a <? b) = true. Proof. intros. apply Nat.ltb_lt. auto. Qed.

Lemma lift_run {A} (m : M A) d x l : run m (d_l d) = Some (x, l, []) ->
  lift m d = Some (x, mkD l (d_slots d) (d_pubs d) (d_evs d) (d_nid d) (d_out d)).
Proof. unfold run, lift. intros ->. rewrite app_nil_r. reflexivity. Qed.

Lemma lift_same {A} (m : M A) d x : run m (d_l d) = Some (x, d_l d, []) -> lift m d = Some (x, d).
Proof. intros H. rewrite (lift_run m d x _ H). destruct d; reflexivity. Qed.

Lemma lift_get_index d : lift get_index d = Some (l_index (d_l d), d).
Proof. apply lift_same. reflexivity. Qed.
Lemma lift_buf_len E d : lift (buf_len E) d = Some (e_len E, d).
Proof. apply lift_same. reflexivity. Qed.
Lemma lift_uadd a b d : a + b < usize_max -> lift (uadd a b) d = Some (a + b, d).
Proof. intros H. apply lift_same. unfold run, uadd. rewrite (ltb_true _ _ H). reflexivity. Qed.
Lemma lift_usub a b d : b <= a -> lift (usub a b) d = Some (a - b, d).
Proof. intros H. apply lift_same. unfold run, usub. rewrite (leb_correct _ _ H). reflexivity. Qed.

Lemma avail_kernel_run k s : wf k s ->
  run (avail_kernel k (env_of k s)) (local_of k s) = Some (fresh k s, local_of k (fst (refresh k s)), []).
Proof.
  intros [H1 H2 H3 H4 _]. unfold local_of, refresh. cbn [fst]. rewrite it_set_ca. unfold env_of, fresh, avail_of.
  destruct k; cbn [avail_kernel ix ca]; [apply tie_prod_available | apply tie_work_available | apply tie_cons_available]; auto.
Qed.

Lemma lift_avail k s out : wf k s ->
  lift (avail_kernel k (env_of k s)) (view k s out) = Some (fresh k s, view k (fst (refresh k s)) out).
Proof. intros Hwf. exact (lift_run _ (view k s out) _ _ (avail_kernel_run k s Hwf)). Qed.

Lemma check_run k n s : wf k s ->
  run (g_check (env_of k s) (avail_kernel k (env_of k s)) n) (local_of k s) =
  Some (fst (check k n s), local_of k (snd (check k n s)), []).
Proof.
  intros Hwf. pose proof (avail_kernel_run k s Hwf) as A. unfold refresh, local_of in *. cbn [fst] in A. rewrite it_set_ca in A.
  unfold env_of. rewrite (tie_check _ _ _ _ _ _ n A). unfold check, refresh.
  destruct (n <=? ca (it_of k s)); cbn [fst snd]; [reflexivity | rewrite it_set_ca; reflexivity].
Qed.

Lemma lift_check k n s out : wf k s ->
  lift (g_check (env_of k s) (avail_kernel k (env_of k s)) n) (view k s out) =
  Some (fst (check k n s), view k (snd (check k n s)) out).
Proof.
  intros Hwf. rewrite (lift_run _ (view k s out) _ _ (check_run k n s Hwf)).
  destruct (check_spec k n s Hwf) as (_ & A & _ & Nd & _). unfold view. cbn [d_slots d_pubs d_evs d_nid d_out]. rewrite A, Nd. reflexivity.
Qed.

Lemma lift_advance k n s0 s d : wf k s -> n <= mlen s -> env_of k s0 = env_of k s -> d_l d = local_of k s ->
  lift (g_advance (env_of k s0) n) d =
  Some (tt, mkD (mkL (wadd (mlen s) (ix (it_of k s)) n) (ca (it_of k s) - n)) (d_slots d)
                (d_pubs d ++ [wadd (mlen s) (ix (it_of k s)) n]) (d_evs d) (d_nid d) (d_out d)).
Proof.
  intros [H1 H2 H3 H4 _] Hn He Hl. unfold lift. rewrite He, Hl.
  pose proof (tie_advance (mlen s) (succ_idx k s) (ix (it_of k s)) (ca (it_of k s)) H1 H4 n Hn) as R. unfold run in R.
  unfold env_of, local_of. rewrite R. reflexivity.
Qed.

Lemma cell_at_ok i d : i < length (d_slots d) -> cell_at i d = Some (LBuf i, d).
Proof. intros H. unfold cell_at. rewrite (ltb_true _ _ H). reflexivity. Qed.
Lemma ptr_add_ok o i d : o + i <= length (d_slots d) -> ptr_add (LBuf o) i d = Some (LBuf (o + i), d).
Proof. intros H. unfold ptr_add. rewrite (leb_correct _ _ H). reflexivity. Qed.
Lemma raw_parts_ok o n d : o + n <= length (d_slots d) -> raw_parts (LBuf o) n d = Some (mkSl RBuf o n, d).
Proof. intros H. unfold raw_parts. rewrite (leb_correct _ _ H). reflexivity. Qed.
Lemma raw_parts_v_ok o n d : o + n <= 2 * length (d_slots d) ->
  raw_parts_v (LBuf o) n d = Some (mkSl (RBufV (length (d_slots d))) o n, d).
Proof. intros H. unfold raw_parts_v. rewrite (leb_correct _ _ H). reflexivity. Qed.
Lemma rd_buf E i d : i < length (d_slots d) -> in_window d i = true -> rd E (LBuf i) d = Some (nth i (d_slots d) 0%N, d).
Proof. intros H W. unfold rd. rewrite (ltb_true _ _ H), W. reflexivity. Qed.
Lemma st_buf i v d : i < length (d_slots d) -> in_window d i = true -> st (LBuf i) v d = Some (tt, mkD (d_l d) (upd i v (d_slots d)) (d_pubs d) (d_evs d) (d_nid d) (d_out d)).
Proof. intros H W. unfold st. rewrite (ltb_true _ _ H), W. reflexivity. Qed.
Lemma rd_src E i d : i < length (dn_src E) -> rd E (LSrc i) d = Some (nth i (dn_src E) 0%N, d).
Proof. intros H. unfold rd. rewrite (ltb_true _ _ H). reflexivity. Qed.
Lemma rd_out E i d : i < length (d_out d) -> rd E (LDst i) d = Some (nth i (d_out d) 0%N, d).
Proof. intros H. unfold rd. rewrite (ltb_true _ _ H). reflexivity. Qed.
Lemma st_out i v d : i < length (d_out d) -> st (LDst i) v d = Some (tt, mkD (d_l d) (d_slots d) (d_pubs d) (d_evs d) (d_nid d) (upd i v (d_out d))).
Proof. intros H. unfold st. rewrite (ltb_true _ _ H). reflexivity. Qed.

(** the cell at the local index lies in the window as soon as one slot is held; the cell [j] further on (no wrap) when more than [j] are *)
Lemma window_here d : 1 <= l_cached (d_l d) -> in_window d (l_index (d_l d)) = true.
Proof. intros H. unfold in_window. rewrite Nat.leb_refl. apply Nat.ltb_lt. lia. Qed.
Lemma window_ahead ix0 ca0 sl pubs evs nid out j : j < ca0 -> in_window (mkD (mkL ix0 ca0) sl pubs evs nid out) (ix0 + j) = true.
Proof.
  intros H. unfold in_window. cbn [d_l d_slots l_index l_cached].
  replace (ix0 <=? ix0 + j) with true by (symmetry; apply Nat.leb_le; lia). apply Nat.ltb_lt. lia.
Qed.
Lemma window_wrapped ix0 ca0 sl pubs evs nid out i : i < ix0 -> ix0 <= length sl -> i + length sl - ix0 < ca0 ->
  in_window (mkD (mkL ix0 ca0) sl pubs evs nid out) i = true.
Proof.
  intros H H1 H2. unfold in_window. cbn [d_l d_slots l_index l_cached].
  replace (ix0 <=? i) with false by (symmetry; apply Nat.leb_gt; lia). apply Nat.ltb_lt. lia.
Qed.

(** [steps] runs a goal [m d = r] call by call, as long as every call succeeds; [norm] keeps the state between two calls an explicit
    record of projections of the state the run started from; [side] and [window] close the bounds a run equation asks for. *)
Ltac norm := cbn [view local_of env_of e_len d_l d_slots d_pubs d_evs d_nid d_out l_index l_cached fst snd app].
Ltac side := cbn [view local_of d_l d_slots d_out l_index l_cached length]; rewrite ?upd_length; first [assumption | lia].
Ltac window := first [assumption | apply window_here; side].
(** the call at the head: a primitive, by its run equation; [dret], [emit], [clone_], by computation; anything else - a function the
    body calls, the closure it was given - by a run equation FOUND IN THE CONTEXT (last case): a proof that runs such a call first
    puts the equation there ([pose proof .. as Callee]) *)
Ltac prim :=
  first [ apply lift_get_index | apply lift_buf_len | apply lift_uadd; side | apply lift_usub; side
        | apply cell_at_ok; side | apply ptr_add_ok; side | apply raw_parts_ok; side | apply raw_parts_v_ok; side
        | apply rd_buf; [side | window] | apply st_buf; [side | window]
        | apply rd_src; side | apply rd_out; side | apply st_out; side
        | eapply lift_advance; [eassumption | side | solve [eassumption | symmetry; eassumption | reflexivity] | reflexivity]
        | reflexivity | match goal with H : _ |- _ => apply H; first [side | window] end ].
(** the comparisons of the test at the head, whichever way it is written *)
Ltac decide_head c :=
  repeat (match c with
  | context[?a <=? ?b] => first [bt (a <=? b) | bf (a <=? b)]
  | context[?a <? ?b] => first [bt (a <? b) | bf (a <? b)]
  | context[?a =? ?b] => first [replace (a =? b) with true by (symmetry; apply Nat.eqb_eq; lia) | replace (a =? b) with false by (symmetry; apply Nat.eqb_neq; lia)]
  end); cbn [negb].
(** one step: composite operations are unfolded to the primitives, a call at the head is run *)
Ltac step :=
  lazymatch goal with
  | |- dbind (dbind _ _) _ _ = _ => apply assoc_step
  | |- dbind (dret ?x) ?k ?d = ?r => change (k x d = r); norm
  | |- dbind (if ?c then _ else _) _ _ = _ => unfold geb, gtb; decide_head c; cbv iota
  | |- dbind (then_ _ _) _ _ = _ => unfold then_
  | |- dbind _ _ _ = _ =>
      first [ eapply run_step; [prim|]; norm
            | progress unfold take_inner, inner_duplicate, inner_ref, buf_ptr, assign_move, write_move, assign, write_, store_mode, check_zeroed ]
  | |- _ = _ =>
      first [ progress unfold take_inner, inner_duplicate, inner_ref, buf_ptr, assign_move, write_move, assign, write_, store_mode, check_zeroed
            | prim ]
  end.
Ltac steps := unfold drun; cbv zeta; cbn [dn_E dn_avail denv_of]; repeat step.

(** from a run to the form the tie theorems have *)
Lemma run_ex {A} (m : DM A) d (Q : A -> dst -> Prop) x d' : m d = Some (x, d') -> Q x d' -> exists r d0, drun m d = Some (r, d0) /\ Q r d0.
Proof. intros H HQ. exists x, d'. split; assumption. Qed.
Lemma run_res {A} (m : DM A) d (Q : A -> dst -> Prop) X : drun m d = Some X -> Q (fst X) (snd X) -> exists r d0, drun m d = Some (r, d0) /\ Q r d0.
Proof. destruct X. apply run_ex. Qed.
(** a wrapper: its body runs the function tied by [T] and passes the answer on *)
Ltac passes_on T unf :=
  let R := fresh "Callee" in let G := fresh "G" in destruct T as (? & ? & R & G); (eapply run_ex; [unf; steps | exact G]).

(** [checked k n s Hwf]: the two outcomes of the [check] every body starts with, granted (first goal) and refused (second).  Called
    while the goal still names the translated function and the Model's, so that what is taken apart here is not carried through the
    run.  It leaves
      [s1], [Ck : check k n s = (_, s1)]     the state [check] leaves
      [Rcheck]                               the run equation of the translated [check] on any view of [s] (for [prim])
      [Hwf1 : wf k s1], [Hix1], [Hlen1], [Hmax1]   and its first, third and fourth field (for [side])
      [Hslots], [Hmlen], [Hnid], [Howned], [Henv], [Hdet]   cells, length, clone counter, ownership, environment and attachment of
                                             [s1] are those of [s]
      [Hheld : n <= ca (it_of k s1)], [Hfit : n <= mlen s]   in the first goal only. *)
Ltac checked k n s Hwf :=
  let Hc := fresh "Hc" in let Hg := fresh "Hg" in
  pose proof (check_spec k n s Hwf) as Hc; pose proof (fun out => lift_check k n s out Hwf) as Rcheck;
  destruct (check k n s) as [[] s1] eqn:Ck; cbn [fst snd] in Hc, Rcheck;
  destruct Hc as (Hwf1 & Hslots & Hmlen & Hnid & Howned & Henv & Hdet & Hg); pose proof Hwf1 as [Hix1 _ Hlen1 Hmax1 _];
  [destruct (Hg eq_refl) as [Hheld Hfit] | ]; clear Hg.

(** ** single items: [next_ref] / [next_ref_mut] / [next_ref_mut_init] = [grant_one] *)
Section One.
Variables (k : stage) (s : mstate) (src out : list cell).
Hypothesis Hwf : wf k s.
Local Notation E := (denv_of k s src).

Definition grant_one_res (r : option loc) (d : dst) : Prop :=
  let '(s', (o, _)) := grant_one k s in
  agrees k s' [] [] d /\ d_out d = out /\
  match r, o with
  | Some (LBuf i), ORef j v => i = j /\ v = nth i (slots s) 0%N
  | None, ONone => True
  | _, _ => False
  end.

(** what these functions answer and the state they leave: the one [check] leaves and, when it grants, the cell at the local index *)
Definition cell_grant : option loc * dst :=
  let '(g, s1) := check k 1 s in (if g then Some (LBuf (ix (it_of k s1))) else None, view k s1 out).
Lemma cell_grant_eq g s1 : check k 1 s = (g, s1) -> cell_grant = (if g then Some (LBuf (ix (it_of k s1))) else None, view k s1 out).
Proof. unfold cell_grant. intros ->. reflexivity. Qed.

Ltac one_tac unf := unfold cell_grant; checked k 1 s Hwf; unf; steps.

Lemma next_ref_mut_init_run : d_next_ref_mut_init E (view k s out) = Some cell_grant.
Proof. one_tac ltac:(unfold d_next_ref_mut_init). Qed.
Lemma next_ref_run : d_next_ref E (view k s out) = Some cell_grant.
Proof. one_tac ltac:(unfold d_next_ref). Qed.
Lemma next_ref_mut_run : d_next_ref_mut E (view k s out) = Some cell_grant.
Proof. one_tac ltac:(unfold d_next_ref_mut). Qed.

Lemma cell_grant_res : grant_one_res (fst cell_grant) (snd cell_grant).
Proof.
  unfold cell_grant, grant_one_res, grant_one, slot. destruct (check_spec k 1 s Hwf) as (_ & A & _).
  destruct (check k 1 s) as [[] s1]; cbn [fst snd] in *; (split; [apply agrees_view | split; [reflexivity|]]); [|exact I].
  rewrite A. split; reflexivity.
Qed.

Theorem tie_next_ref_mut_init : exists r d, drun (d_next_ref_mut_init E) (view k s out) = Some (r, d) /\ grant_one_res r d.
Proof. exact (run_res _ _ _ _ next_ref_mut_init_run cell_grant_res). Qed.

Theorem tie_next_ref : exists r d, drun (d_next_ref E) (view k s out) = Some (r, d) /\ grant_one_res r d.
Proof. exact (run_res _ _ _ _ next_ref_run cell_grant_res). Qed.

Theorem tie_next_ref_mut : exists r d, drun (d_next_ref_mut E) (view k s out) = Some (r, d) /\ grant_one_res r d.
Proof. exact (run_res _ _ _ _ next_ref_mut_run cell_grant_res). Qed.
End One.

(** a method that builds a closure and passes it, with its own arguments, to a generic function ([push] to [_push], [copy_slice] to
    [_extract_slice] ...): [to_call] brings the goal down to that call, where the generic theorem applies and asks for the closure's part *)
Lemma pass_on {A} (m : DM A) d : (v <~ m ;; dret v) d = m d.
Proof. unfold dbind, dret. destruct (m d) as [[x d']|]; reflexivity. Qed.
Ltac to_call := unfold drun; cbv zeta; rewrite pass_on.
Lemma pass_on_unit (m : DM unit) d : (v <~ m ;; dret tt) d = m d.
Proof. unfold dbind, dret. destruct (m d) as [[[] d']|]; reflexivity. Qed.

Theorem tie_single_item_wrappers k s src out : wf k s ->
  (exists r d, drun (d_get_workable (denv_of k s src)) (view k s out) = Some (r, d) /\ grant_one_res k s out r d) /\
  (exists r d, drun (d_get_next_item_mut (denv_of k s src)) (view k s out) = Some (r, d) /\ grant_one_res k s out r d) /\
  (exists r d, drun (d_get_next_item_mut_init (denv_of k s src)) (view k s out) = Some (r, d) /\ grant_one_res k s out r d) /\
  (exists r d, drun (d_peek_ref (denv_of k s src)) (view k s out) = Some (r, d) /\ grant_one_res k s out r d).
Proof.
  intros Hwf. repeat split;
  [ passes_on (tie_next_ref_mut k s src out Hwf) ltac:(unfold d_get_workable) | passes_on (tie_next_ref_mut k s src out Hwf) ltac:(unfold d_get_next_item_mut)
  | passes_on (tie_next_ref_mut_init k s src out Hwf) ltac:(unfold d_get_next_item_mut_init) | passes_on (tie_next_ref k s src out Hwf) ltac:(unfold d_peek_ref) ].
Qed.

(** ** [next] / [next_duplicate] = [pop] *)
Section Pop.
Variables (s : mstate) (src out : list cell).
Hypothesis Hwf : wf C s.
Hypothesis Hatt : det (it_of C s) = false.
Local Notation E := (denv_of C s src).

Definition pop_res (mv : bool) (r : option cell) (d : dst) : Prop :=
  let '(s', (o, evs)) := pop mv s in
  agrees C s' (match r with Some _ => [tC (pub s')] | None => [] end) evs d /\ d_out d = out /\
  match r, o with Some v, OVal v' => v = v' | None, ONone => True | _, _ => False end.

Ltac pop_tac unf Ck Hdet Howned :=
  checked C 1 s Hwf; (eapply run_ex; [unf; steps | unfold pop_res, pop; rewrite Ck]);
  [ unfold rete, slot; split; [|split; reflexivity];
    apply agrees_advance; [exact (eq_trans Hdet Hatt) | reflexivity |];
    rewrite ev_advance; cbn [owned set_slots d_evs dn_owned denv_of]; rewrite Howned;
    destruct (owned s); [destruct (isz _)|]; apply Permutation_refl
  | split; [apply agrees_view | split; [reflexivity | exact I]] ].

Theorem tie_next : exists r d, drun (d_next E) (view C s out) = Some (r, d) /\ pop_res true r d.
Proof. pop_tac ltac:(unfold d_next) Ck Hdet Howned. Qed.

Theorem tie_next_duplicate : exists r d, drun (d_next_duplicate E) (view C s out) = Some (r, d) /\ pop_res false r d.
Proof. pop_tac ltac:(unfold d_next_duplicate) Ck Hdet Howned. Qed.

Theorem tie_pop_wrappers :
  (exists r d, drun (d_pop_move E) (view C s out) = Some (r, d) /\ pop_res true r d) /\
  (exists r d, drun (d_pop E) (view C s out) = Some (r, d) /\ pop_res false r d).
Proof.
  split; [passes_on tie_next ltac:(unfold d_pop_move) | passes_on tie_next_duplicate ltac:(unfold d_pop)].
Qed.
End Pop.

(** ** [_push] with the closures of [push] / [push_init] = the Model's [push] *)
(** what a closure handed to [_push] must do with the cell it is given: store the value in ledger mode [m] and take it over *)
Definition cell_store_effect (E : denv) (m : smode) (i : nat) (v : cell) (d : dst) : dst :=
  mkD (d_l d) (upd i v (d_slots d)) (d_pubs d)
      ((d_evs d ++ (if dn_owned E then store_ev m (nth i (d_slots d) 0%N) else [])) ++ (if dn_owned E then [LTake v] else []))
      (d_nid d) (d_out d).
Definition cell_store_spec (E : denv) (m : smode) (f : loc -> cell -> DM unit) : Prop :=
  forall i v d, i < length (d_slots d) -> in_window d i = true -> f (LBuf i) v d = Some (tt, cell_store_effect E m i v d).

Section Push.
Variables (s : mstate) (src out : list cell) (v : cell).
Hypothesis Hwf : wf P s.
Hypothesis Hatt : det (it_of P s) = false.
Local Notation E := (denv_of P s src).

Definition push_res (m : smode) (r : result unit cell) (d : dst) : Prop :=
  let '(s', (o, evs)) := push m v s in
  agrees P s' (match r with Ok _ => [tP (pub s')] | Err _ => [] end) evs d /\ d_out d = out /\
  match r, o with Ok _, OOk => True | Err x, OErr y => x = y /\ x = v | _, _ => False end.

Theorem push_generic m f : cell_store_spec E m f ->
  exists r d, drun (d__push E v f) (view P s out) = Some (r, d) /\ push_res m r d.
Proof.
  intros Hf. checked P 1 s Hwf; pose proof (next_ref_mut_init_run P s src out Hwf) as Callee; rewrite (cell_grant_eq P s out _ _ Ck) in Callee;
  (eapply run_ex; [unfold d__push, d_advance; steps | unfold push_res, push; rewrite Ck]).
  - unfold rete, slot, cell_store_effect. split; [|split; [reflexivity | exact I]].
    apply agrees_advance; [exact (eq_trans Hdet Hatt) | reflexivity |].
    rewrite ev_advance. cbn [owned set_slots d_evs dn_owned denv_of]. rewrite Howned.
    destruct (owned s); apply Permutation_refl.
  - split; [apply agrees_view | split; [reflexivity | split; reflexivity]].
Qed.

Theorem tie_push : exists r d, drun (d_push E v) (view P s out) = Some (r, d) /\ push_res SAssign r d.
Proof.
  unfold d_push. to_call. apply (push_generic SAssign).
  intros i v0 d Hi Hw. steps.
Qed.

Theorem tie_push_init : exists r d, drun (d_push_init E v) (view P s out) = Some (r, d) /\ push_res SInit r d.
Proof.
  unfold d_push_init. to_call. apply (push_generic SInit).
  intros i v0 d Hi Hw. steps.
  destruct (isz (nth i (d_slots d) 0%N)) eqn:Z; steps; unfold cell_store_effect, store_ev; rewrite Z; reflexivity.
Qed.
End Push.

(** ** [_extract_item] with the closures of [copy_item] / [clone_item] = the Model's [extract_item] *)
Section ExtractItem.
Variables (s : mstate) (src : list cell) (o0 : cell).
Hypothesis Hwf : wf C s.
Hypothesis Hatt : det (it_of C s) = false.
Local Notation E := (denv_of C s src).
Local Notation out := [o0].

Definition extract_item_res (cl : bool) (r : option unit) (d : dst) : Prop :=
  let '(s', (o, evs)) := extract_item cl s in
  agrees C s' (match r with Some _ => [tC (pub s')] | None => [] end) evs d /\
  match r, o with Some _, ODst news => d_out d = news | None, ONone => d_out d = out | _, _ => False end.

Theorem tie_copy_item : owned s = false ->
  exists r d, drun (d_copy_item E (LDst 0)) (view C s out) = Some (r, d) /\ extract_item_res false r d.
Proof.
  intros Hpl. checked C 1 s Hwf; pose proof (next_ref_run C s src out Hwf) as Callee; rewrite (cell_grant_eq C s out _ _ Ck) in Callee;
  (eapply run_ex; [unfold d_copy_item, d__extract_item, d_advance; steps | unfold extract_item_res, extract_item; rewrite Ck]).
  - unfold rete. split; [|reflexivity]. apply agrees_advance; [exact (eq_trans Hdet Hatt) | reflexivity |].
    rewrite ev_advance, Howned, Hpl. cbn [d_evs dn_owned denv_of]. rewrite Hpl. constructor.
  - split; [apply agrees_view | reflexivity].
Qed.

Theorem tie_clone_item :
  exists r d, drun (d_clone_item E (LDst 0)) (view C s out) = Some (r, d) /\ extract_item_res true r d.
Proof.
  checked C 1 s Hwf; pose proof (next_ref_run C s src out Hwf) as Callee; rewrite (cell_grant_eq C s out _ _ Ck) in Callee;
  (eapply run_ex; [unfold d_clone_item, d__extract_item, d_advance; steps | unfold extract_item_res, extract_item; rewrite Ck]).
  - unfold clones, rete, slot. rewrite Howned. cbn [dn_owned denv_of length]. change (N.of_nat 1) with 1%N. rewrite N.add_1_r.
    destruct (owned s) eqn:Own; (split; [|reflexivity]);
    (apply agrees_advance; [exact (eq_trans Hdet Hatt) | reflexivity |]); rewrite ev_advance; cbn [owned set_nid]; rewrite Howned;
    [apply Permutation_refl | constructor].
  - split; [apply agrees_view | reflexivity].
Qed.
End ExtractItem.

(** ** [next_chunk] / [next_chunk_mut] = [grant]: the two raw slices are exactly the Model's [chunk] of the window, inside the allocation *)
Section Chunk.
Variables (k : stage) (s : mstate) (src out : list cell) (n : nat).
Hypothesis Hwf : wf k s.
Local Notation E := (denv_of k s src).

Definition grant_res (r : option (sl * sl)) (d : dst) : Prop :=
  let '(s', (o, _)) := grant k n s in
  agrees k s' [] [] d /\ d_out d = out /\
  match r, o with
  | Some (a, b), OSlices i h t =>
      a = mkSl RBuf i (fst (chunk (mlen s) i n)) /\ b = mkSl RBuf 0 (snd (chunk (mlen s) i n)) /\
      h = sub (slots s) (s_off a) (s_len a) /\ t = sub (slots s) (s_off b) (s_len b) /\
      s_off a + s_len a <= length (slots s) /\ s_off b + s_len b <= length (slots s) /\ s_len a + s_len b = n
  | None, ONone => True
  | _, _ => False
  end.

Lemma chunk_facts : forall i, i < mlen s -> n <= mlen s -> length (slots s) = mlen s ->
  let '(h, t) := chunk (mlen s) i n in i + h <= length (slots s) /\ 0 + t <= length (slots s) /\ h + t = n.
Proof. intros i Hi Hn Hl. pose proof (chunk_spec (mlen s) i n Hi Hn) as H. destruct (chunk (mlen s) i n). lia. Qed.

(** what these functions answer and the state they leave: the one [check] leaves and, when it grants, the two slices of [chunk] *)
Definition chunk_grant : option (sl * sl) * dst :=
  let '(g, s1) := check k n s in
  (if g then Some (mkSl RBuf (ix (it_of k s1)) (fst (chunk (mlen s) (ix (it_of k s1)) n)), mkSl RBuf 0 (snd (chunk (mlen s) (ix (it_of k s1)) n)))
   else None, view k s1 out).
Lemma chunk_grant_eq g s1 : check k n s = (g, s1) ->
  chunk_grant = (if g then Some (mkSl RBuf (ix (it_of k s1)) (fst (chunk (mlen s) (ix (it_of k s1)) n)), mkSl RBuf 0 (snd (chunk (mlen s) (ix (it_of k s1)) n)))
                 else None, view k s1 out).
Proof. unfold chunk_grant. intros ->. reflexivity. Qed.

(** the run up to the wrap test once, then each of its two cases to its end *)
Ltac chunk_tac unf s1 Hmlen :=
  unfold chunk_grant; checked k n s Hwf; unf; steps; unfold chunk; rewrite Hmlen in *;
  destruct (Nat.leb_spec (mlen s) (ix (it_of k s1) + n)); steps; cbn [fst snd]; unfold dret, empty_sl; repeat f_equal; lia.

Lemma next_chunk_mut_run : d_next_chunk_mut E n (view k s out) = Some chunk_grant.
Proof. chunk_tac ltac:(unfold d_next_chunk_mut) s1 Hmlen. Qed.

Lemma next_chunk_run : d_next_chunk E n (view k s out) = Some chunk_grant.
Proof. chunk_tac ltac:(unfold d_next_chunk) s1 Hmlen. Qed.

Lemma chunk_grant_res : grant_res (fst chunk_grant) (snd chunk_grant).
Proof.
  unfold chunk_grant, grant_res, grant, Seq.rd, Seq.ret. destruct (check_spec k n s Hwf) as (Hwf1 & A & B & _ & _ & _ & _ & Hg).
  destruct (check k n s) as [[] s1]; cbn [fst snd] in *.
  2:{ split; [apply agrees_view | split; [reflexivity | exact I]]. }
  destruct (Hg eq_refl) as [_ Hn]. destruct Hwf1 as [W1 _ _ _ _]. destruct Hwf as [_ _ W3 _ _]. rewrite B, A in *.
  pose proof (chunk_spec (mlen s) (ix (it_of k s1)) n W1 Hn) as Hc.
  destruct (chunk (mlen s) (ix (it_of k s1)) n) as [h t] eqn:Ch.
  split; [apply agrees_view | split; [reflexivity|]]. rewrite Ch. cbn [fst snd s_off s_len]. repeat split; try reflexivity; lia.
Qed.

Theorem tie_next_chunk_mut : exists r d, drun (d_next_chunk_mut E n) (view k s out) = Some (r, d) /\ grant_res r d.
Proof. exact (run_res _ _ _ _ next_chunk_mut_run chunk_grant_res). Qed.

Theorem tie_next_chunk : exists r d, drun (d_next_chunk E n) (view k s out) = Some (r, d) /\ grant_res r d.
Proof. exact (run_res _ _ _ _ next_chunk_run chunk_grant_res). Qed.
End Chunk.

Theorem tie_slice_wrappers k s src out n : wf k s ->
  (exists r d, drun (d_get_workable_slice_exact (denv_of k s src) n) (view k s out) = Some (r, d) /\ grant_res k s out n r d) /\
  (exists r d, drun (d_get_next_slices_mut (denv_of k s src) n) (view k s out) = Some (r, d) /\ grant_res k s out n r d) /\
  (exists r d, drun (d_peek_slice (denv_of k s src) n) (view k s out) = Some (r, d) /\ grant_res k s out n r d).
Proof.
  intros Hwf. repeat split;
  [ passes_on (tie_next_chunk_mut k s src out n Hwf) ltac:(unfold d_get_workable_slice_exact)
  | passes_on (tie_next_chunk_mut k s src out n Hwf) ltac:(unfold d_get_next_slices_mut)
  | passes_on (tie_next_chunk k s src out n Hwf) ltac:(unfold d_peek_slice) ].
Qed.

(** ** the forms that first take a fresh look: [get_workable_slice_avail], [get_workable_slice_multiple_of], [peek_available] *)
Section AvailForms.
Variables (k : stage) (s : mstate) (src out : list cell).
Hypothesis Hwf : wf k s.
Local Notation E := (denv_of k s src).
Local Notation s1 := (fst (refresh k s)).

Theorem tie_get_workable_slice_avail :
  exists r d, drun (d_get_workable_slice_avail E) (view k s out) = Some (r, d) /\
    match fresh k s with
    | 0 => r = None /\ agrees k s1 [] [] d /\ d_out d = out
    | S _ => grant_res k s1 out (fresh k s) r d
    end.
Proof.
  unfold d_get_workable_slice_avail, d_available, d_get_workable_slice_exact.
  pose proof (lift_avail k s out Hwf) as Callee.
  destruct (tie_next_chunk_mut k s1 src out (fresh k s) (wf_refresh k s Hwf)) as (r & d & Callee_chunk & G).
  destruct (fresh k s); (eapply run_ex; [steps|]).
  - split; [reflexivity | split; [apply agrees_view | reflexivity]].
  - exact G.
Qed.

Theorem tie_peek_available :
  exists r d, drun (d_peek_available E) (view k s out) = Some (r, d) /\ grant_res k s1 out (fresh k s) r d.
Proof.
  unfold d_peek_available, d_available, d_peek_slice.
  pose proof (lift_avail k s out Hwf) as Callee.
  destruct (tie_next_chunk k s1 src out (fresh k s) (wf_refresh k s Hwf)) as (r & d & Callee_chunk & G).
  eapply run_ex; [steps | exact G].
Qed.

(** [rhs = 0] panics (remainder by zero) after the fresh look, as the Model says ([OPanic]); otherwise: *)
Theorem tie_get_workable_slice_multiple_of rhs : rhs <> 0 ->
  exists r d, drun (d_get_workable_slice_multiple_of E rhs) (view k s out) = Some (r, d) /\
    match fresh k s - fresh k s mod rhs with
    | 0 => r = None /\ agrees k s1 [] [] d /\ d_out d = out
    | S _ => grant_res k s1 out (fresh k s - fresh k s mod rhs) r d
    end.
Proof.
  intros Hr. unfold d_get_workable_slice_multiple_of, d_available, d_get_workable_slice_exact.
  pose proof (lift_avail k s out Hwf) as Callee. destruct rhs as [|r']; [congruence|].
  pose proof (Nat.mod_le (fresh k s) (S r') ltac:(lia)) as Hm.
  destruct (tie_next_chunk_mut k s1 src out (fresh k s - fresh k s mod S r') (wf_refresh k s Hwf)) as (r & d & Callee_chunk & G).
  destruct (fresh k s - fresh k s mod S r') eqn:F; (eapply run_ex; [steps; rewrite ?F; steps|]).
  - split; [reflexivity | split; [apply agrees_view | reflexivity]].
  - exact G.
Qed.

Theorem tie_multiple_of_zero_panics : drun (d_get_workable_slice_multiple_of E 0) (view k s out) = None.
Proof.
  unfold d_get_workable_slice_multiple_of, d_available. pose proof (lift_avail k s out Hwf) as Callee. steps. reflexivity.
Qed.
End AvailForms.

(** ** [wait_for]: the one busy-waiting call.  Every round is one fresh look ([_available]: one Acquire load of the successor's index,
      remembered); nothing is published, no cell is touched; it returns in the first round in which enough items are there.  (In this
      sequential view the successor does not move: either it returns at once or it is still spinning when the fuel runs out.) *)
(** a second fresh look sees what the first saw *)
Lemma refresh_idem k s : fresh k (fst (refresh k s)) = fresh k s /\ fst (refresh k (fst (refresh k s))) = fst (refresh k s).
Proof. unfold refresh. cbn [fst]. rewrite fresh_set_ca. split; [reflexivity | apply set_ca_twice]. Qed.

Section WaitFor.
Variables (k : stage) (s : mstate) (src out : list cell).
Hypothesis Hwf : wf k s.
Local Notation E := (denv_of k s src).
Local Notation s1 := (fst (refresh k s)).

(** one round of the loop condition, in any state with the same successor and length; and the rounds after a first one that found too little:
    the fresh look has changed nothing but the remembered availability, so they find the same *)
Lemma wait_round count s' : wf k s' -> env_of k s' = env_of k s ->
  (v1 <~ d_available E ;; dret (v1 <? count)) (view k s' out) = Some (fresh k s' <? count, view k (fst (refresh k s')) out).
Proof. intros Hw He. unfold d_available. cbn [dn_avail denv_of]. rewrite <- He. pose proof (lift_avail k s' out Hw) as Callee. steps. Qed.

Lemma wait_spins count f : (fresh k s <? count) = true ->
  while_ f (v1 <~ d_available E ;; dret (v1 <? count)) (dret tt) (view k s1 out) = Some (false, view k s1 out).
Proof.
  intros Lt. destruct (refresh_idem k s) as (Rf & Rs). induction f as [|f IH]; [reflexivity|].
  cbn [while_]. unfold dbind at 1. rewrite (wait_round count s1 (wf_refresh k s Hwf) eq_refl), Rf, Lt, Rs. exact IH.
Qed.

Theorem tie_wait_for fuel count :
  drun (d_wait_for E fuel count) (view k s out) =
  Some (match fuel with 0 => None | S _ => if count <=? fresh k s then Some tt else None end,
        match fuel with 0 => view k s out | S _ => view k s1 out end).
Proof.
  unfold d_wait_for, drun. destruct fuel as [|f]; [reflexivity|].
  cbn [while_]. unfold dbind at 1 2. rewrite (wait_round count s Hwf eq_refl). rewrite (Nat.leb_antisym (fresh k s) count).
  destruct (fresh k s <? count) eqn:Lt; [|reflexivity].
  unfold dbind at 1, dret at 1. rewrite (wait_spins count f Lt). reflexivity.
Qed.

Corollary wait_for_publishes_nothing fuel count r d :
  drun (d_wait_for E fuel count) (view k s out) = Some (r, d) -> d_pubs d = [] /\ d_slots d = slots s /\ d_evs d = [] /\ d_out d = out.
Proof. rewrite tie_wait_for. intros H. inversion H. destruct fuel; cbn; auto. Qed.
End WaitFor.

(** the wrappers ([Detached], the [AsyncIterator] trait) only pass these calls on to the wrapped iterator *)
Theorem pass_through_closed : forallb (fun x => snd x) DataFns.pass_through = true.
Proof. reflexivity. Qed.

(** ** wiring: which published index each iterator follows and which one it publishes to, as written in the source *)
Theorem tie_wiring k s : succ_idx k s = tget (g_succ k (hasW s)) (pub s) /\ g_pub k = k.
Proof. unfold succ_idx, g_succ, g_pub. destruct k; split; try reflexivity. destruct (hasW s); reflexivity. Qed.

(** the Model's [set_pub k] names the index word the source's [set_atomic_index] of stage [k] stores to *)
Corollary wiring_set_pub k i s : set_pub k i s = set_pub (g_pub k) i s.
Proof. destruct (tie_wiring k s) as [_ H]. rewrite H. reflexivity. Qed.

(** ** the access discipline every [= Some ..] of this file (and of DataTieSlices / DataTieV) carries

    Reading or writing a buffer cell is DEFINED only inside the window the iterator holds ([in_window]: [l_cached] cells from the local
    index on, cyclically).  So each tie theorem - "the translated function runs and gives the Model's result" - also says: the function
    touches no cell before an availability check has covered it (a granted [check n] leaves [n <= l_cached], [check_grants]) and no
    cell after [advance] has published it away ([advance] moves the local index past it and takes it out of [l_cached]).  That is
    the source-level half of C03's disjoint windows and of C02's "data before publication / data after the index is read". *)
Theorem access_inside_window E i d :
  (forall v d', rd E (LBuf i) d = Some (v, d') -> i < length (d_slots d) /\ in_window d i = true) /\
  (forall m v u d', store_mode E m (LBuf i) v d = Some (u, d') -> i < length (d_slots d) /\ in_window d i = true) /\
  (forall v d', take_inner E (LBuf i) d = Some (v, d') -> i < length (d_slots d) /\ in_window d i = true) /\
  (forall v d', inner_duplicate E (LBuf i) d = Some (v, d') -> i < length (d_slots d) /\ in_window d i = true) /\
  (forall b d', check_zeroed E (LBuf i) d = Some (b, d') -> i < length (d_slots d) /\ in_window d i = true).
Proof.
  assert (R : forall v d', rd E (LBuf i) d = Some (v, d') -> i < length (d_slots d) /\ in_window d i = true).
  { intros v d'. unfold rd. destruct (i <? length (d_slots d)) eqn:A; destruct (in_window d i) eqn:B; cbn [andb]; intros H; try discriminate.
    split; [apply Nat.ltb_lt; exact A | reflexivity]. }
  split; [exact R|].
  assert (R2 : forall A (k : cell -> DM A) a d', dbind (rd E (LBuf i)) k d = Some (a, d') -> i < length (d_slots d) /\ in_window d i = true).
  { intros A k a d'. unfold dbind. destruct (rd E (LBuf i) d) as [[x dx]|] eqn:Hr; [|discriminate]. intros _. exact (R x dx eq_refl). }
  repeat split; intros; eapply R2; match goal with H : _ = Some _ |- _ => exact H end.
Qed.

(** outside the window nothing is defined: in particular not at the local index while nothing is held *)
Lemma nothing_held_nothing_read E ix0 sl pubs evs nid out :
  rd E (LBuf ix0) (mkD (mkL ix0 0) sl pubs evs nid out) = None.
Proof. unfold rd, in_window. cbn [d_l d_slots l_index l_cached]. rewrite Nat.leb_refl, Nat.sub_diag. cbn. rewrite andb_false_r. reflexivity. Qed.
