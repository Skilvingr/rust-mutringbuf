(** * The refinement relation between Model states and Spec states, and its basic consequences. *)
From Coq Require Import List Arith NArith Bool Lia.
Require Import MRB.Base.Ring MRB.Model.Types MRB.Model.Seq MRB.Spec.Pipe.

Record Rel (m : mstate) (a : pipe) : Prop := mkRel {
  r_len : mlen m = slen a;
  r_pos : 0 < slen a;
  r_slots : length (slots m) = slen a;
  r_tape : length (tape a) = tC (ppos a) + slen a;
  (* I2: every ring index is the position modulo len *)
  r_pub : forall k, tget k (pub m) = tget k (ppos a) mod slen a;
  r_here : forall k, here (it_of k m) = tget k (shere a);
  r_it : forall k, tget k (shere a) = true ->
           det (it_of k m) = tget k (sdet a) /\
           ix (it_of k m) = tget k (lpos a) mod slen a /\
           (* I3: the remembered availability never exceeds the true one *)
           ca (it_of k m) <= a_avail k a;
  (* I4: an attached (or absent) iterator's local position is its published one *)
  r_att : forall k, tget k (sdet a) = false -> tget k (lpos a) = tget k (ppos a);
  r_gone : forall k, tget k (shere a) = false -> tget k (sdet a) = false;
  r_flag : flag m = sflag a;
  r_hasW : hasW m = shasW a;
  r_heap : heap m = sheap a;
  r_owned : owned m = sowned a;
  r_freed : freed m = sfreed a;
  r_nid : nid m = snid a;
  r_noW : shasW a = false -> tW (shere a) = false /\ tW (ppos a) = 0;
  (* stage order and capacity, on positions *)
  r_oC : tC (ppos a) <= tC (lpos a) <= a_succ C a;
  r_oW : shasW a = true -> tW (ppos a) <= tW (lpos a) <= tP (ppos a);
  r_oP : tP (ppos a) <= tP (lpos a) <= tC (ppos a) + slen a - 1;
  r_oS : a_succ C a <= tP (ppos a);
  (* I5: contents of the live window *)
  r_cont : forall p, tC (ppos a) <= p < tC (ppos a) + slen a ->
             nth (p mod slen a) (slots m) 0%N = nth p (tape a) 0%N
}.

Lemma usable_here a k : a_usable k a = true -> tget k (shere a) = true.
Proof. unfold a_usable. intros H. apply andb_prop in H as [H _]. apply andb_prop in H as [_ H]. exact H. Qed.

Definition stage_on (k : stage) (a : pipe) : bool := match k with W => shasW a | _ => true end.

Lemma usable_on a k : a_usable k a = true -> stage_on k a = true.
Proof. unfold a_usable. intros H. apply andb_prop in H as [_ H]. exact H. Qed.

Lemma usable_W a : a_usable W a = true -> shasW a = true.
Proof. apply usable_on. Qed.

Lemma attached_usable a k : a_attached k a = true -> a_usable k a = true.
Proof. unfold a_attached. intros H. apply andb_prop in H. tauto. Qed.
Lemma detached_usable a k : a_detached k a = true -> a_usable k a = true.
Proof. unfold a_detached. intros H. apply andb_prop in H. tauto. Qed.
Lemma attached_det a k : a_attached k a = true -> tget k (sdet a) = false.
Proof. unfold a_attached. intros H. apply andb_prop in H as [_ H]. apply negb_true_iff in H. exact H. Qed.
Lemma detached_det a k : a_detached k a = true -> tget k (sdet a) = true.
Proof. unfold a_detached. intros H. apply andb_prop in H as [_ H]. exact H. Qed.

Lemma avail_limit k a : a_avail k a = a_limit k a - tget k (lpos a).
Proof. destruct k; reflexivity. Qed.

Lemma succ_limit k a : k <> P -> a_succ k a = a_limit k a.
Proof. destruct k; congruence || reflexivity. Qed.

Lemma succ_publish j k p a : tget k (ppos a) <= p -> a_succ j a <= a_succ j (a_publish k p a).
Proof. unfold a_succ. destruct j, k; simpl; try destruct (shasW a); lia. Qed.

Lemma limit_publish j k p a : tget k (ppos a) <= p -> a_limit j a <= a_limit j (a_publish k p a).
Proof. intros H. pose proof (succ_publish j k p a H). unfold a_limit. destruct j; lia. Qed.

Lemma limit_publish_self k p a : a_limit k (a_publish k p a) = a_limit k a.
Proof. destruct k; reflexivity. Qed.

(** Beside the global fields and the contents of the window, [Rel] says the same of each stage, and the other
    stages enter a stage's clauses only through its limit [a_limit k a]: availability is limit minus local
    position, and the order chain reads published <= local <= limit at every stage.  So an operation of
    stage [k] keeps [Rel] if it keeps [k]'s own clauses and lowers nobody's limit ([rel_frame]). *)
Set Implicit Arguments.
Record StageRel (len lim : nat) (on : bool) (pi : nat) (it : iter) (pp lp : nat) (d h : bool) : Prop := mkStageRel {
  st_pub : pi = pp mod len;
  st_here : here it = h;
  st_it : h = true -> det it = d /\ ix it = lp mod len /\ ca it <= lim - lp;
  st_att : d = false -> lp = pp;
  st_gone : h = false -> d = false;
  st_off : on = false -> h = false /\ pp = 0;
  st_ord : pp <= lp <= lim
}.
Unset Implicit Arguments.

Lemma sr_mono len lim lim' on pi it pp lp d h :
  lim <= lim' -> StageRel len lim on pi it pp lp d h -> StageRel len lim' on pi it pp lp d h.
Proof.
  intros L []. constructor; auto; [|lia].
  intros H. destruct (st_it0 H) as (? & ? & ?). repeat split; auto. lia.
Qed.

Lemma sr_init len lim on h : 0 < len -> (on = false -> h = false) ->
  StageRel len lim on 0 (mkIter 0 0 false h) 0 0 false h.
Proof.
  intros Hl Ho. constructor; auto; try lia.
  - symmetry. apply Nat.mod_0_l. lia.
  - intros _. repeat split; [symmetry; apply Nat.mod_0_l; lia | apply Nat.le_0_l].
Qed.

Definition SR (k : stage) (m : mstate) (a : pipe) : Prop :=
  StageRel (slen a) (a_limit k a) (stage_on k a) (tget k (pub m)) (tget k (its m))
           (tget k (ppos a)) (tget k (lpos a)) (tget k (sdet a)) (tget k (shere a)).

Section Own.
Context {k : stage} {m : mstate} {a : pipe}.
Hypothesis S : SR k m a.

(* the acting stage's new fields, read off the setters; its limit is the old one *)
Local Ltac own :=
  unfold SR in *; simpl; rewrite ?tget_tset_same, ?limit_publish_self;
  match goal with |- StageRel _ ?l _ _ _ _ _ _ _ => change l with (a_limit k a) end;
  destruct S as [Sp Sh Si Sa Sg So Sr].

Lemma SR_drop : SR k (fst (drop_iter k m)) (fst (a_drop_iter k a)).
Proof.
  own. constructor; simpl; auto; try discriminate; [intros E; split; [reflexivity | apply (So E)] | lia].
Qed.

Hypothesis Hh : tget k (shere a) = true.

Lemma SR_set_ca c : c <= a_limit k a - tget k (lpos a) -> SR k (set_ca k c m) a.
Proof. intros. own. destruct (Si Hh) as (? & ? & ?). constructor; auto. Qed.

Lemma SR_move_publish p c : tget k (lpos a) <= p <= a_limit k a -> c <= a_limit k a - p ->
  SR k (set_pub k (p mod slen a) (set_ix_ca k (p mod slen a) c m)) (a_publish k p (a_set_lpos k p a)).
Proof.
  intros. own. destruct (Si Hh) as (? & ? & ?).
  constructor; auto; [intros E; destruct (So E); congruence | lia].
Qed.

Lemma SR_publish : SR k (set_pub k (ix (it_of k m)) m) (a_publish k (tget k (lpos a)) a).
Proof.
  own. destruct (Si Hh) as (? & ? & ?).
  constructor; auto; [intros E; destruct (So E); congruence | lia].
Qed.

Lemma SR_local_move p c : tget k (sdet a) = true -> tget k (ppos a) <= p <= a_limit k a -> c <= a_limit k a - p ->
  SR k (set_ix_ca k (p mod slen a) c m) (a_set_lpos k p a).
Proof. intros. own. destruct (Si Hh) as (? & ? & ?). constructor; auto; congruence. Qed.

Lemma SR_set_det b : (b = false -> tget k (lpos a) = tget k (ppos a)) -> SR k (set_det k b m) (a_set_det k b a).
Proof. intros. own. destruct (Si Hh) as (? & ? & ?). constructor; auto; congruence. Qed.
End Own.

(** conjunctions over the fields, so that they hold of states with the same fields by conversion *)
Definition Glob (m : mstate) (a : pipe) : Prop :=
  mlen m = slen a /\ 0 < slen a /\ length (slots m) = slen a /\ flag m = sflag a /\ hasW m = shasW a /\
  heap m = sheap a /\ owned m = sowned a /\ freed m = sfreed a /\ nid m = snid a.

Definition Cont (sl : list cell) (a : pipe) : Prop :=
  length (tape a) = tC (ppos a) + slen a /\
  forall p, tC (ppos a) <= p < tC (ppos a) + slen a -> nth (p mod slen a) sl 0%N = nth p (tape a) 0%N.

Lemma rel_glob m a : Rel m a -> Glob m a.
Proof. intros []. repeat split; assumption. Qed.

Lemma rel_cont m a : Rel m a -> Cont (slots m) a.
Proof. intros []. split; assumption. Qed.

Lemma rel_stage m a k : Rel m a -> SR k m a.
Proof.
  intros R. constructor; try apply R.
  - intros H. rewrite <- avail_limit. apply (r_it _ _ R k H).
  - destruct k; try discriminate. apply (r_noW _ _ R).
  - destruct k; [apply (r_oP _ _ R) | | apply (r_oC _ _ R)].
    (* an absent worker sits at 0 *)
    destruct (shasW a) eqn:E; [apply (r_oW _ _ R E)|].
    destruct (r_noW _ _ R E) as [H0 H1].
    pose proof (r_att _ _ R W (r_gone _ _ R W H0)) as H2. simpl in *. unfold a_limit, a_succ. lia.
Qed.

Lemma rel_intro m a : Glob m a -> (forall k, SR k m a) -> Cont (slots m) a -> Rel m a.
Proof.
  intros G S [? ?]. unfold Glob in G. decompose [and] G.
  constructor; auto; try (intros k; apply (S k)).
  - intros k Hk. rewrite avail_limit. apply (st_it (S k) Hk).
  - apply (st_off (S W)).
  - apply (st_ord (S C)).
  - intros _. apply (st_ord (S W)).
  - apply (st_ord (S P)).
  - pose proof (st_ord (S W)) as HW. unfold a_limit, a_succ in *. simpl in HW.
    destruct (shasW a); lia.
Qed.

Definition stage_kept (j : stage) (m : mstate) (a : pipe) (m' : mstate) (a' : pipe) : Prop :=
  tget j (pub m') = tget j (pub m) /\ tget j (its m') = tget j (its m) /\
  tget j (ppos a') = tget j (ppos a) /\ tget j (lpos a') = tget j (lpos a) /\
  tget j (sdet a') = tget j (sdet a) /\ tget j (shere a') = tget j (shere a).

(** [stage_kept j] after a setter of stage [k]; [N : k <> j] *)
Ltac kept N := repeat split; simpl; rewrite ?tget_tset_other by exact N; reflexivity.

Lemma rel_frame k m a m' a' :
  Rel m a -> Glob m' a' -> Cont (slots m') a' -> slen a' = slen a -> shasW a' = shasW a ->
  (forall j, k <> j -> stage_kept j m a m' a' /\ a_limit j a <= a_limit j a') ->
  SR k m' a' -> Rel m' a'.
Proof.
  intros R G Ct El Ew F S. apply rel_intro; auto.
  intros j. destruct (stage_eqb_spec k j) as [<-|N]; [exact S|].
  destruct (F j N) as [(E1 & E2 & E3 & E4 & E5 & E6) L]. pose proof (rel_stage m a j R) as Sj.
  unfold SR, stage_on in *. rewrite E1, E2, E3, E4, E5, E6, El, Ew. exact (sr_mono _ _ _ _ _ _ _ _ _ _ L Sj).
Qed.

(** the case where the first three premises hold by conversion *)
Lemma rel_frame_own k m a m' a' :
  Rel m a -> (Glob m a -> Glob m' a') -> (Cont (slots m) a -> Cont (slots m') a') ->
  (forall j, a_limit j a' = a_limit j a) -> slen a' = slen a -> shasW a' = shasW a ->
  (forall j, k <> j -> stage_kept j m a m' a') -> SR k m' a' -> Rel m' a'.
Proof.
  intros R G Ct L El Ew F S. apply (rel_frame k m a); auto using rel_glob, rel_cont.
  intros j N. split; [auto | rewrite L; apply le_n].
Qed.

Lemma stage_limit m a k : Rel m a ->
  tget k (lpos a) + a_avail k a = a_limit k a /\ tget k (ppos a) <= tget k (lpos a) <= a_limit k a.
Proof. intros R. pose proof (st_ord (rel_stage m a k R)). rewrite avail_limit. lia. Qed.

Lemma stage_window m a k : Rel m a -> stage_on k a = true ->
  tC (ppos a) <= tget k (ppos a) /\ a_limit k a <= tC (ppos a) + slen a - 1.
Proof.
  intros R E.
  pose proof (st_ord (rel_stage m a P R)) as HP.
  pose proof (st_ord (rel_stage m a W R)) as HW.
  pose proof (st_ord (rel_stage m a C R)) as HC.
  unfold a_limit, a_succ in *. destruct k; simpl in *; try rewrite E in *; try destruct (shasW a); lia.
Qed.

Lemma window_bounds m a k : Rel m a -> a_usable k a = true ->
  tC (ppos a) <= tget k (lpos a) /\ tget k (lpos a) + a_avail k a <= tC (ppos a) + slen a - 1.
Proof.
  intros R U. destruct (stage_window m a k R (usable_on _ _ U)), (stage_limit m a k R). lia.
Qed.

Lemma usable_eq m a k : Rel m a -> usable k m = a_usable k a.
Proof.
  intros R. unfold usable, a_usable. rewrite (r_freed _ _ R), (r_here _ _ R k), (r_hasW _ _ R). reflexivity.
Qed.

Lemma det_guard_eq m a k (f : bool -> bool) : Rel m a ->
  usable k m && f (det (it_of k m)) = a_usable k a && f (tget k (sdet a)).
Proof.
  intros R. rewrite (usable_eq m a k R). destruct (a_usable k a) eqn:U; simpl; auto.
  destruct (r_it _ _ R k (usable_here _ _ U)) as (-> & _). reflexivity.
Qed.

Lemma attached_eq m a k : Rel m a -> attached k m = a_attached k a.
Proof. exact (det_guard_eq m a k negb). Qed.

Lemma detached_eq m a k : Rel m a -> detached k m = a_detached k a.
Proof. exact (det_guard_eq m a k (fun b => b)). Qed.

Lemma plain_eq m a : Rel m a -> plain m = a_plain a.
Proof. intros R. unfold plain, a_plain. rewrite (r_owned _ _ R). reflexivity. Qed.

Lemma ix_eq m a k : Rel m a -> a_usable k a = true -> ix (it_of k m) = tget k (lpos a) mod slen a.
Proof. intros R U. destruct (r_it _ _ R k (usable_here _ _ U)) as (_ & H & _). exact H. Qed.

Lemma succ_eq m a k : Rel m a -> succ_idx k m = a_succ k a mod slen a.
Proof.
  intros R. unfold succ_idx, a_succ. rewrite (r_hasW _ _ R). destruct k.
  - rewrite mod_add_len by apply R. exact (r_pub _ _ R C).
  - exact (r_pub _ _ R P).
  - destruct (shasW a); [exact (r_pub _ _ R W) | exact (r_pub _ _ R P)].
Qed.

Lemma fresh_eq m a k : Rel m a -> a_usable k a = true -> fresh k m = a_avail k a.
Proof.
  intros R U. unfold fresh. rewrite (r_len _ _ R), (ix_eq m a k R U), (succ_eq m a k R), avail_limit.
  destruct (stage_limit m a k R) as [_ O]. destruct (stage_window m a k R (usable_on _ _ U)) as [Wlo Whi].
  pose proof (r_pos _ _ R) as Hl.
  destruct k; unfold avail_of, a_limit in *; [|apply dist_mod; lia..].
  unfold a_succ in *. rewrite mod_add_len, pavail_mod by (simpl in *; lia). simpl in *. lia.
Qed.
