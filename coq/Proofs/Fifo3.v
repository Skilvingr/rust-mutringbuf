(** * End-to-end FIFO for the sequential Spec: three-stage pipeline (producer -> worker -> consumer),
      plain items, attached iterators.

    Histories are made of pushes, the worker's in-place accesses through its granted window
    ([Edit W] = [*r += d], [Poke W] / [PokeInit W] = [*r = v]), the worker's release [Advance W n],
    the consumer's advancing reads, and peeks / availability queries of every stage.  The history must
    respect the contract ([snd (srun a h) = true]: the worker touches only offsets below its
    availability and releases no more than its availability).

    For such a history, with [a' = sfinal a h] the final state:

    - what the consumer obtained, in order, is exactly the final tape at the consecutive positions
      from the consumer's published position in [a] up to the one in [a'];
    - the final tape at every position [p] below the producer's is the value that was there at the start
      (or, for a position pushed during [h], the pushed value: the [k]-th accepted value sits at position
      [tP (ppos a) + k]) with exactly the worker's edits recorded for [p] applied, in the order they were issued;
    - every edit is issued on a position that, at that moment, the producer has published, the worker has
      not released, and (hence) the consumer has not read; every read of the consumer covers released
      positions only; the contents of a released position never change again;
    - consumer <= worker <= producer on positions and at most [len - 1] positions are in flight.

    So the consumer sees each pushed value exactly once, in order, with all of the worker's edits and
    nothing else: nothing lost, duplicated, reordered, invented, or seen half-processed. *)
From Coq Require Import List Arith NArith Bool Lia.
Import ListNotations.
Require Import MRB.Base.Ring MRB.Base.ListAux MRB.Model.Types MRB.Model.Seq MRB.Spec.Pipe.
Require Import MRB.Proofs.Rel MRB.Proofs.TapeFacts MRB.Proofs.Refine MRB.Proofs.Fifo.

Definition fifo3_op (o : op) : bool :=
  match o with
  | Push _ | PushSlice _ | Avail P => true                              (* producer *)
  | Edit W _ _ | Poke W _ _ | PokeInit W _ _ => true                    (* worker, in-place accesses *)
  | Advance W _ => true                                                 (* worker, release *)
  | Avail W | GetOne W | GetExact W _ | GetAvail W => true              (* worker, grants *)
  | Pop | CopyItem | CopySlice _ | Avail C => true                      (* consumer, advancing reads *)
  | GetExact C _ | GetOne C => true                                     (* consumer, peeks *)
  | _ => false
  end.

Lemma fifo_op_fifo3 o : fifo_op o = true -> fifo3_op o = true.
Proof. destruct o; try discriminate; try (destruct k; try discriminate); reflexivity. Qed.

(** one in-place access of the worker: [*r += d] or [*r = v] *)
Inductive wedit := EAdd (d : N) | ESet (v : N).

Definition apply_edit (e : wedit) (x : N) : N :=
  match e with EAdd d => (x + d)%N | ESet v => v end.

(** a list of accesses, oldest first *)
Definition apply_edits (es : list wedit) (x : N) : N := fold_left (fun y e => apply_edit e y) es x.

(** the accesses recorded for position [p], in the order they were issued *)
Fixpoint edits_at (p : nat) (eds : list (nat * wedit)) : list wedit :=
  match eds with
  | [] => []
  | (q, e) :: r => if q =? p then e :: edits_at p r else edits_at p r
  end.

(** the access one operation performs, with its absolute position *)
Definition edits1 (a : pipe) (o : op) : list (nat * wedit) :=
  match o with
  | Edit W off d =>
      match fst (snd (sstep a o)) with OUnit => [(tW (lpos a) + off, EAdd d)] | _ => [] end
  | Poke W off v | PokeInit W off v =>
      match fst (snd (sstep a o)) with OUnit => [(tW (lpos a) + off, ESet v)] | _ => [] end
  | _ => []
  end.

Fixpoint edits (a : pipe) (h : list op) : list (nat * wedit) :=
  match h with
  | [] => []
  | o :: r => edits1 a o ++ edits (fst (sstep a o)) r
  end.

(** the value position [p] starts with: what the tape holds if the producer is already past [p],
    otherwise the accepted value that lands on [p] (the [k]-th one lands on [tP (lpos a) + k]) *)
Definition src1 (a : pipe) (acc : list N) (p : nat) : N :=
  if p <? tP (lpos a) then nth p (tape a) 0%N else nth (p - tP (lpos a)) acc 0%N.

Definition src (a : pipe) (h : list op) (p : nat) : N := src1 a (accepted a h) p.

(** what the consumer must see at position [p] *)
Definition expected (a : pipe) (h : list op) (p : nat) : N :=
  apply_edits (edits_at p (edits a h)) (src a h p).

Lemma apply_edits_app es1 es2 x : apply_edits (es1 ++ es2) x = apply_edits es2 (apply_edits es1 x).
Proof. unfold apply_edits. apply fold_left_app. Qed.

Lemma edits_at_app p e1 e2 : edits_at p (e1 ++ e2) = edits_at p e1 ++ edits_at p e2.
Proof.
  induction e1 as [|[q e] r IH]; simpl; auto.
  destruct (q =? p); simpl; rewrite IH; reflexivity.
Qed.

Lemma edits_at_none p eds : (forall q e, In (q, e) eds -> q <> p) -> edits_at p eds = [].
Proof.
  induction eds as [|[q e] r IH]; intros H; simpl; auto.
  destruct (q =? p) eqn:E.
  - apply Nat.eqb_eq in E. exfalso. apply (H q e); simpl; auto.
  - apply IH. intros q' e' Hin. apply (H q' e'). simpl; auto.
Qed.

Lemma srun_ok_cons a o r : snd (srun a (o :: r)) = ok_op a o && snd (srun (fst (sstep a o)) r).
Proof.
  simpl. destruct (sstep a o) as [a1 x]. simpl. destruct (srun a1 r) as [[a2 xs] okr]. reflexivity.
Qed.

Lemma srun_ok_app h1 : forall a h2,
  snd (srun a (h1 ++ h2)) = snd (srun a h1) && snd (srun (sfinal a h1) h2).
Proof.
  induction h1 as [|o r IH]; intros a h2.
  - reflexivity.
  - change ((o :: r) ++ h2) with (o :: (r ++ h2)). rewrite !srun_ok_cons, IH, andb_assoc. reflexivity.
Qed.

Lemma sfinal_app h1 : forall a h2, sfinal a (h1 ++ h2) = sfinal (sfinal a h1) h2.
Proof. induction h1 as [|o r IH]; intros a h2; simpl; auto. Qed.

(** ** The invariant: a reachable three-stage plain state with nothing detached *)
Record Inv3 (a : pipe) : Prop := mkInv3 {
  j_rel : exists m, Rel m a;
  j_W : shasW a = true;
  j_plain : sowned a = false;
  j_detP : tP (sdet a) = false;
  j_detW : tW (sdet a) = false;
  j_detC : tC (sdet a) = false
}.

Lemma inv3_att a : Inv3 a ->
  tC (lpos a) = tC (ppos a) /\ tW (lpos a) = tW (ppos a) /\ tP (lpos a) = tP (ppos a).
Proof.
  intros I. destruct (j_rel a I) as [m R].
  repeat split; [apply (r_att _ _ R C (j_detC a I)) | apply (r_att _ _ R W (j_detW a I)) | apply (r_att _ _ R P (j_detP a I))].
Qed.

Lemma inv3_chain a : Inv3 a ->
  tC (lpos a) <= tW (lpos a) /\ tW (lpos a) <= tP (lpos a) /\ tP (lpos a) <= tC (lpos a) + slen a - 1 /\
  0 < slen a /\ length (tape a) = tC (lpos a) + slen a.
Proof.
  intros I. destruct (j_rel a I) as [m R], (inv3_att a I) as (AC & AW & AP).
  pose proof (r_oC _ _ R) as HC. pose proof (r_oP _ _ R) as HP. pose proof (r_oW _ _ R (j_W a I)) as HW.
  pose proof (r_pos _ _ R) as Hl. pose proof (r_tape _ _ R) as Ht.
  unfold a_succ in *. rewrite (j_W a I) in *. simpl in *.
  repeat match goal with |- _ /\ _ => split end; lia.
Qed.

Lemma inv3_avail a : Inv3 a ->
  a_avail C a = tW (lpos a) - tC (lpos a) /\ a_avail W a = tP (lpos a) - tW (lpos a) /\
  a_avail P a = tC (lpos a) + slen a - 1 - tP (lpos a).
Proof.
  intros I. destruct (inv3_att a I) as (AC & AW & AP).
  unfold a_avail, a_succ. rewrite (j_W a I). simpl. rewrite AC, AW, AP. auto.
Qed.

(** [StepSpec a a1 acc eds cons]: going from [a] to [a1] accepts [acc], performs the accesses [eds]
    and hands [cons] to the consumer *)
Record StepSpec (a a1 : pipe) (acc : list N) (eds : list (nat * wedit)) (cons : list N) : Prop := mkSS {
  ss_P : tP (lpos a1) = tP (lpos a) + length acc;
  ss_C : tC (lpos a1) = tC (lpos a) + length cons;
  ss_W : tW (lpos a) <= tW (lpos a1);
  (* the consumer reads released positions only, and what it gets is what they hold *)
  ss_rel : tC (lpos a1) <= tW (lpos a);
  ss_cons : cons = sub (tape a) (tC (lpos a)) (length cons);
  (* the worker touches only positions the producer has published and the worker has not released *)
  ss_eds : forall q e, In (q, e) eds -> tW (lpos a) <= q < tP (lpos a);
  ss_tape : forall p, p < tP (lpos a1) ->
              nth p (tape a1) 0%N = apply_edits (edits_at p eds) (src1 a acc p)
}.

Lemma src_below a acc p : p < tP (lpos a) -> apply_edits (edits_at p []) (src1 a acc p) = nth p (tape a) 0%N.
Proof. intros Hp. unfold src1. bt (p <? tP (lpos a)). reflexivity. Qed.

Lemma spec_noop a : Inv3 a -> StepSpec a a [] [] [].
Proof.
  intros I. destruct (inv3_chain a I) as (O1 & _).
  constructor; cbn [length]; try lia.
  - reflexivity.
  - intros q e [].
  - intros p Hp. rewrite src_below by exact Hp. reflexivity.
Qed.

(** storing [vs] at the producer's position and advancing *)
Lemma spec_produce a vs : Inv3 a -> length vs <= a_avail P a ->
  StepSpec a (a_advance P (length vs) (a_set_tape (write (tape a) (tP (lpos a)) vs) a)) vs [] [].
Proof.
  intros I L. destruct (inv3_chain a I) as (O1 & O2 & O3 & Hl & Ht), (inv3_avail a I) as (_ & _ & AP).
  unfold a_advance. cbn [tget a_set_tape sdet]. rewrite (j_detP a I).
  constructor; cbn [a_publish a_set_lpos a_set_tape tape lpos tget tset tP tW tC length]; try lia.
  - reflexivity.
  - intros q e [].
  - intros p Hp. cbn [edits_at]. unfold apply_edits; cbn [fold_left].
    rewrite (nth_write 0%N) by lia. unfold src1.
    destruct (p <? tP (lpos a)) eqn:E; [apply Nat.ltb_lt in E | apply Nat.ltb_ge in E].
    + bf (tP (lpos a) <=? p). reflexivity.
    + bt (tP (lpos a) <=? p). bt (p <? tP (lpos a) + length vs). reflexivity.
Qed.

(** one in-place access of the worker at offset [off] of its window *)
Lemma spec_edit a off e : Inv3 a -> off < a_avail W a ->
  StepSpec a
    (a_set_tape (upd (tW (lpos a) + off) (apply_edit e (nth (tW (lpos a) + off) (tape a) 0%N)) (tape a)) a)
    [] [(tW (lpos a) + off, e)] [].
Proof.
  intros I L. destruct (inv3_chain a I) as (O1 & O2 & O3 & Hl & Ht), (inv3_avail a I) as (_ & AW & _).
  constructor; cbn [a_set_tape tape lpos length]; try lia.
  - reflexivity.
  - intros q e' [H|[]]. inversion H; subst. lia.
  - intros p Hp. rewrite (nth_upd 0%N) by lia. cbn [edits_at]. unfold src1. bt (p <? tP (lpos a)).
    destruct (tW (lpos a) + off =? p) eqn:E.
    + apply Nat.eqb_eq in E. subst p. reflexivity.
    + reflexivity.
Qed.

(** the worker's release *)
Lemma spec_advW a n : Inv3 a -> n <= a_avail W a -> StepSpec a (a_advance W n a) [] [] [].
Proof.
  intros I L. destruct (inv3_chain a I) as (O1 & _).
  unfold a_advance. cbn [tget]. rewrite (j_detW a I).
  constructor; cbn [a_publish a_set_lpos tape lpos tget tset tP tW tC length]; try lia.
  - reflexivity.
  - intros q e [].
  - intros p Hp. rewrite src_below by exact Hp. reflexivity.
Qed.

(** advancing the consumer by [n] hands over the next [n] positions *)
Lemma spec_consume a n : Inv3 a -> n <= a_avail C a ->
  StepSpec a (a_advance C n a) [] [] (sub (tape a) (tC (lpos a)) n).
Proof.
  intros I L. destruct (inv3_chain a I) as (O1 & O2 & O3 & Hl & Ht), (inv3_avail a I) as (AC & _).
  assert (SL : length (sub (tape a) (tC (lpos a)) n) = n) by (apply sub_length; lia).
  unfold a_advance. cbn [tget]. rewrite (j_detC a I).
  constructor; rewrite ?SL; cbn [a_publish a_set_lpos tape lpos tget tset tP tW tC length slen]; try lia.
  - reflexivity.
  - intros q e [].
  - intros p Hp. rewrite src_below by exact Hp. apply extend_old. lia.
Qed.

Lemma fifo3_op_data o : fifo3_op o = true -> reshapes o = false.
Proof. destruct o; auto; discriminate. Qed.

Lemma inv3_step a o : Inv3 a -> fifo3_op o = true -> ok_op a o = true -> Inv3 (fst (sstep a o)).
Proof.
  intros I F OK. destruct (j_rel a I) as [m R].
  pose proof (sstep_cfg a o (fifo3_op_data o F)) as K.
  constructor.
  - exists (fst (step m o)). apply (step_refines m a o R OK).
  - rewrite (cfg_hasW _ _ K). apply (j_W a I).
  - rewrite (cfg_owned _ _ K). apply (j_plain a I).
  - rewrite (cfg_det _ _ K). apply (j_detP a I).
  - rewrite (cfg_det _ _ K). apply (j_detW a I).
  - rewrite (cfg_det _ _ K). apply (j_detC a I).
Qed.

Lemma step3_spec a o : Inv3 a -> fifo3_op o = true -> ok_op a o = true ->
  StepSpec a (fst (sstep a o)) (accepted1 a o) (edits1 a o) (consumed1 a o).
Proof.
  intros I F OK. destruct (fifo_op o) eqn:Fo.
  - (* producer and consumer: as in the two-stage pipeline *)
    assert (E : edits1 a o = []) by (destruct o; try discriminate; try (destruct k; try discriminate); reflexivity).
    destruct (inv3_chain a I) as (O1 & O2 & O3 & Hl & Ht), (inv3_avail a I) as (AC & _).
    rewrite E. destruct (fifo_move a o Fo ltac:(lia)) as [|vs L|n L];
      [apply spec_noop | apply spec_produce | apply spec_consume]; auto.
  - destruct o; try discriminate; try (destruct k; try discriminate);
      unfold accepted1, consumed1, edits1; cbn [sstep ok_op] in *;
      match goal with |- context[if ?g then _ else _] => destruct g eqn:G end;
      try (simpl; apply spec_noop; exact I).
    + (* Advance W n *) apply Nat.leb_le in OK. exact (spec_advW a n I OK).
    + rewrite grant_one_state. apply spec_noop, I.
    + rewrite grant_state. apply spec_noop, I.
    + destruct (a_avail W a); simpl; apply spec_noop; exact I.
    + (* Poke W off v *) apply Nat.ltb_lt in OK. exact (spec_edit a off (ESet v) I OK).
    + (* PokeInit W off v *) apply Nat.ltb_lt in OK. exact (spec_edit a off (ESet v) I OK).
    + (* Edit W off d *) apply Nat.ltb_lt in OK. exact (spec_edit a off (EAdd d) I OK).
Qed.

(** one step leaves every released position alone *)
Lemma step_stable a a1 acc eds cons : StepSpec a a1 acc eds cons -> tW (lpos a) <= tP (lpos a) ->
  forall p, p < tW (lpos a) -> nth p (tape a1) 0%N = nth p (tape a) 0%N.
Proof.
  intros S O p Hp. rewrite (ss_tape _ _ _ _ _ S) by (rewrite (ss_P _ _ _ _ _ S); lia).
  rewrite edits_at_none.
  - unfold apply_edits; cbn [fold_left]. unfold src1. bt (p <? tP (lpos a)). reflexivity.
  - intros q e Hin. pose proof (ss_eds _ _ _ _ _ S q e Hin). lia.
Qed.

(** [RunSpec a a' acc eds cons]: going from [a] to [a'] accepted [acc], performed the accesses [eds]
    and handed [cons] to the consumer *)
Record RunSpec (a a' : pipe) (acc : list N) (eds : list (nat * wedit)) (cons : list N) : Prop := mkRS {
  rs_inv : Inv3 a';
  rs_P : tP (lpos a') = tP (lpos a) + length acc;
  rs_C : tC (lpos a') = tC (lpos a) + length cons;
  rs_W : tW (lpos a) <= tW (lpos a');
  (* a released position keeps its contents for ever *)
  rs_stable : forall p, p < tW (lpos a) -> nth p (tape a') 0%N = nth p (tape a) 0%N;
  (* the consumer got the final contents of the positions it went over *)
  rs_cons : cons = sub (tape a') (tC (lpos a)) (length cons);
  rs_eds : forall q e, In (q, e) eds -> tW (lpos a) <= q < tP (lpos a');
  (* final contents = initial / pushed value with the accesses recorded for the position *)
  rs_tape : forall p, p < tP (lpos a') ->
              nth p (tape a') 0%N = apply_edits (edits_at p eds) (src1 a acc p)
}.

Lemma run3 h : forall a, Inv3 a -> forallb fifo3_op h = true -> snd (srun a h) = true ->
  RunSpec a (sfinal a h) (accepted a h) (edits a h) (consumed a h).
Proof.
  induction h as [|o r IH]; intros a I F OK.
  - cbn [sfinal accepted edits consumed]. constructor; cbn [length]; auto; try lia.
    + intros q e [].
    + intros p Hp. rewrite src_below by exact Hp. reflexivity.
  - simpl in F. apply andb_prop in F as [Fo Fr].
    rewrite srun_ok_cons in OK. apply andb_prop in OK as [Oo Or].
    pose proof (step3_spec a o I Fo Oo) as S. pose proof (inv3_step a o I Fo Oo) as I1.
    pose proof (IH _ I1 Fr Or) as Rn.
    cbn [sfinal accepted consumed edits].
    set (a1 := fst (sstep a o)) in *. set (a' := sfinal a1 r) in *.
    destruct (inv3_chain a I) as (_ & O2 & O3 & Hl & Ht).
    destruct (inv3_chain a' (rs_inv _ _ _ _ _ Rn)) as (_ & Q2 & Q3 & Hl' & Ht').
    pose proof (step_stable _ _ _ _ _ S O2) as ST1.
    destruct S as [sP sC sW sR sCo sE sT]. destruct Rn as [rI rP rC rW rSt rCo rE rT].
    assert (ST : forall p, p < tW (lpos a) -> nth p (tape a') 0%N = nth p (tape a) 0%N).
    { intros p Hp. rewrite rSt by lia. apply ST1. exact Hp. }
    constructor.
    + exact rI.
    + rewrite app_length. lia.
    + rewrite app_length. lia.
    + lia.
    + exact ST.
    + rewrite app_length, sub_app. f_equal.
      * etransitivity; [exact sCo|]. symmetry. apply (sub_ext 0%N); try lia.
        intros q Hq. apply ST. lia.
      * rewrite <- sC. exact rCo.
    + intros q e Hin. apply in_app_or in Hin as [Hin|Hin].
      * pose proof (sE q e Hin). lia.
      * pose proof (rE q e Hin). lia.
    + intros p Hp. rewrite edits_at_app, apply_edits_app. rewrite rT by exact Hp. f_equal.
      destruct (p <? tP (lpos a1)) eqn:E; [apply Nat.ltb_lt in E | apply Nat.ltb_ge in E].
      * unfold src1 at 1. bt (p <? tP (lpos a1)). rewrite sT by exact E. f_equal.
        unfold src1. destruct (p <? tP (lpos a)) eqn:E4; [reflexivity | apply Nat.ltb_ge in E4].
        rewrite app_nth1 by lia. reflexivity.
      * rewrite edits_at_none by (intros q e Hin; pose proof (sE q e Hin); lia).
        unfold apply_edits; cbn [fold_left]. unfold src1.
        bf (p <? tP (lpos a1)). bf (p <? tP (lpos a)). rewrite app_nth2 by lia. f_equal. clear - sP E. lia.
Qed.

Theorem FIFO3 h a : Inv3 a -> forallb fifo3_op h = true -> snd (srun a h) = true ->
  let a' := sfinal a h in
  (* positions: one per accepted / consumed value *)
  tP (ppos a') = tP (ppos a) + length (accepted a h) /\
  tC (ppos a') = tC (ppos a) + length (consumed a h) /\
  (* (i) the consumer obtained, in order, the final contents of the positions it went over *)
  consumed a h = sub (tape a') (tC (ppos a)) (tC (ppos a') - tC (ppos a)) /\
  (* (ii) final contents of every position below the producer: the initial / pushed value with
     exactly the worker's accesses recorded for that position, in order *)
  (forall p, p < tP (ppos a') -> nth p (tape a') 0%N = expected a h p) /\
  consumed a h = map (expected a h) (seq (tC (ppos a)) (length (consumed a h))) /\
  (* every access went to a position between the worker's initial and the producer's final position *)
  (forall q e, In (q, e) (edits a h) -> tW (ppos a) <= q < tP (ppos a')) /\
  (* (iii) stage order and capacity *)
  tC (ppos a') <= tW (ppos a') /\ tW (ppos a') <= tP (ppos a') /\
  tP (ppos a') - tC (ppos a') <= slen a - 1.
Proof.
  intros I F OK a'. pose proof (run3 h a I F OK) as Rn. fold a' in Rn.
  pose proof (cfg_slen _ _ (sfinal_cfg fifo3_op fifo3_op_data h a F)) as SL. fold a' in SL.
  destruct (inv3_att a I) as (E1 & E2 & E3), (inv3_att a' (rs_inv _ _ _ _ _ Rn)) as (G1 & G2 & G3).
  destruct (inv3_chain a' (rs_inv _ _ _ _ _ Rn)) as (Q1 & Q2 & Q3 & Hl' & Ht').
  destruct Rn as [rI rP rC rW rSt rCo rE rT].
  rewrite <- E1, <- E2, <- E3, <- G1, <- G2, <- G3.
  assert (X : forall p, p < tP (lpos a') -> nth p (tape a') 0%N = expected a h p) by exact rT.
  repeat match goal with |- _ /\ _ => split end; auto; try lia.
  - replace (tC (lpos a') - tC (lpos a)) with (length (consumed a h)) by lia. exact rCo.
  - etransitivity; [exact rCo|]. rewrite (sub_map_seq 0%N) by lia. apply map_ext_in.
    intros p Hp. apply in_seq in Hp. apply X. lia.
Qed.

(** ** Nothing is seen half-processed: the discipline at every step of the history *)
Theorem FIFO3_discipline h1 o h2 a :
  Inv3 a -> forallb fifo3_op (h1 ++ o :: h2) = true -> snd (srun a (h1 ++ o :: h2)) = true ->
  let a1 := sfinal a h1 in          (* the state in which [o] is issued *)
  let a' := sfinal a (h1 ++ o :: h2) in
  (* an access of the worker goes to a position that the producer has published, the worker has not
     released and the consumer has not reached *)
  (forall q e, In (q, e) (edits1 a1 o) ->
     tC (ppos a1) <= tW (ppos a1) /\ tW (ppos a1) <= q /\ q < tP (ppos a1)) /\
  (* a read of the consumer returns the contents of the next positions, all released by the worker *)
  consumed1 a1 o = sub (tape a1) (tC (ppos a1)) (length (consumed1 a1 o)) /\
  tC (ppos a1) + length (consumed1 a1 o) <= tW (ppos a1) /\
  (* an accepted push lands on the producer's position, beyond everything the worker may touch *)
  (forall j, j < length (accepted1 a1 o) ->
     nth (tP (ppos a1) + j) (tape (fst (sstep a1 o))) 0%N = nth j (accepted1 a1 o) 0%N) /\
  (* what has been released never changes again, and the worker never goes back *)
  (forall p, p < tW (ppos a1) -> nth p (tape a') 0%N = nth p (tape a1) 0%N) /\
  tW (ppos a1) <= tW (ppos a').
Proof.
  intros I F OK a1 a'.
  rewrite forallb_app in F. apply andb_prop in F as [F1 F2].
  rewrite srun_ok_app in OK. apply andb_prop in OK as [OK1 OK2]. fold a1 in OK2.
  pose proof (run3 h1 a I F1 OK1) as R1. fold a1 in R1.
  pose proof (rs_inv _ _ _ _ _ R1) as I1.
  pose proof (run3 (o :: h2) a1 I1 F2 OK2) as R2.
  assert (Ea : sfinal a1 (o :: h2) = a') by (unfold a', a1; rewrite sfinal_app; reflexivity).
  rewrite Ea in R2.
  simpl in F2. apply andb_prop in F2 as [Fo _].
  rewrite srun_ok_cons in OK2. apply andb_prop in OK2 as [Oo _].
  pose proof (step3_spec a1 o I1 Fo Oo) as S.
  pose proof (inv3_step a1 o I1 Fo Oo) as I2.
  destruct (inv3_att a1 I1) as (E1 & E2 & E3), (inv3_chain a1 I1) as (O1 & O2 & _).
  destruct (inv3_att a' (rs_inv _ _ _ _ _ R2)) as (G1 & G2 & G3).
  rewrite <- E1, <- E2, <- E3, <- G2.
  repeat match goal with |- _ /\ _ => split end.
  - intros q e Hin. pose proof (ss_eds _ _ _ _ _ S q e Hin). lia.
  - exact (ss_cons _ _ _ _ _ S).
  - pose proof (ss_C _ _ _ _ _ S). pose proof (ss_rel _ _ _ _ _ S). lia.
  - intros j Hj. rewrite (ss_tape _ _ _ _ _ S) by (rewrite (ss_P _ _ _ _ _ S); lia).
    rewrite edits_at_none by (intros q e Hin; pose proof (ss_eds _ _ _ _ _ S q e Hin); lia).
    unfold apply_edits; cbn [fold_left]. unfold src1. bf (tP (lpos a1) + j <? tP (lpos a1)).
    f_equal. lia.
  - exact (rs_stable _ _ _ _ _ R2).
  - exact (rs_W _ _ _ _ _ R2).
Qed.

(** ** The same on the outputs of the executable Model *)

(** what the results of a run say the consumer obtained *)
Definition consumed_out (o : op) (x : out * list lev) : list N :=
  match o with
  | Pop => match fst x with OVal v => [v] | _ => [] end
  | CopyItem => match fst x with ODst l => l | _ => [] end
  | CopySlice _ => match fst x with ODst l => l | _ => [] end
  | _ => []
  end.

Fixpoint consumed_outs (h : list op) (xs : list (out * list lev)) : list N :=
  match h, xs with
  | o :: r, x :: xr => consumed_out o x ++ consumed_outs r xr
  | _, _ => []
  end.

Lemma consumed_outs_spec h : forall a, consumed a h = consumed_outs h (snd (fst (srun a h))).
Proof.
  induction h as [|o r IH]; intros a.
  - reflexivity.
  - cbn [consumed srun]. unfold consumed1. specialize (IH (fst (sstep a o))).
    destruct (sstep a o) as [a1 x]. cbn [fst snd] in *.
    destruct (srun a1 r) as [[a2 xs] okr]. cbn [fst snd consumed_outs] in *.
    rewrite IH. destruct o; reflexivity.
Qed.

(** any state related to a Model state, three stages, plain items, nothing detached; the history
    respects the contract: the Model returns the Spec's results, and the theorem holds for them *)
Theorem FIFO3_rel m a h :
  Rel m a -> shasW a = true -> sowned a = false ->
  tP (sdet a) = false -> tW (sdet a) = false -> tC (sdet a) = false ->
  forallb fifo3_op h = true -> snd (srun a h) = true ->
  let a' := fst (fst (srun a h)) in
  snd (run m h) = snd (fst (srun a h)) /\ Rel (fst (run m h)) a' /\
  consumed_outs h (snd (run m h)) = consumed a h /\
  tP (ppos a') = tP (ppos a) + length (accepted a h) /\
  tC (ppos a') = tC (ppos a) + length (consumed a h) /\
  consumed a h = sub (tape a') (tC (ppos a)) (tC (ppos a') - tC (ppos a)) /\
  (forall p, p < tP (ppos a') -> nth p (tape a') 0%N = expected a h p) /\
  consumed a h = map (expected a h) (seq (tC (ppos a)) (length (consumed a h))) /\
  (forall q e, In (q, e) (edits a h) -> tW (ppos a) <= q < tP (ppos a')) /\
  tC (ppos a') <= tW (ppos a') /\ tW (ppos a') <= tP (ppos a') /\
  tP (ppos a') - tC (ppos a') <= slen a - 1.
Proof.
  intros R HW HO DP DW DC F OK a'.
  assert (I : Inv3 a) by (constructor; eauto).
  pose proof (FIFO3 h a I F OK) as T. cbv zeta in T. rewrite sfinal_srun in T. fold a' in T.
  pose proof (run_refines h m a R) as RR. pose proof (consumed_outs_spec h a) as CO.
  unfold a'. destruct (srun a h) as [[a2 ys] ok]. cbn [fst snd] in *.
  destruct (run m h) as [m' xs]. cbn [fst snd] in *. destruct (RR OK) as [-> R'].
  repeat match goal with |- _ /\ _ => split end; auto; apply T.
Qed.

(** ** From the initial state: position [k] holds the [k]-th accepted value *)
Lemma inv3_init c a : a_init c = Some a -> c_worker c = true -> c_owned c = false ->
  Inv3 a /\ ppos a = mkTri 0 0 0 /\ lpos a = mkTri 0 0 0 /\ slen a = length (c_init c).
Proof.
  intros Ha HW HO. pose proof (init_refines c) as R. rewrite Ha in R.
  destruct (init c) as [m|]; [|contradiction].
  unfold a_init in Ha. destruct (length (c_init c)) eqn:E; try discriminate.
  inversion Ha; subst; clear Ha.
  split; [|auto].
  constructor; simpl; auto. exists m. exact R.
Qed.

Theorem FIFO3_init c a h : a_init c = Some a -> c_worker c = true -> c_owned c = false ->
  forallb fifo3_op h = true -> snd (srun a h) = true ->
  let a' := fst (fst (srun a h)) in
  (* the [k]-th value consumed is the [k]-th value accepted, with exactly the worker's accesses to
     position [k], in order *)
  consumed a h =
    map (fun k => apply_edits (edits_at k (edits a h)) (nth k (accepted a h) 0%N))
        (seq 0 (length (consumed a h))) /\
  length (consumed a h) <= length (accepted a h) /\
  length (accepted a h) - length (consumed a h) <= length (c_init c) - 1 /\
  tP (ppos a') = length (accepted a h) /\ tC (ppos a') = length (consumed a h) /\
  tC (ppos a') <= tW (ppos a') /\ tW (ppos a') <= tP (ppos a') /\
  (forall q e, In (q, e) (edits a h) -> q < length (accepted a h)).
Proof.
  intros Ha HW HO F OK a'. destruct (inv3_init c a Ha HW HO) as (I & Ep & El & Es).
  pose proof (FIFO3 h a I F OK) as T. cbv zeta in T. rewrite sfinal_srun in T. fold a' in T.
  destruct T as (T1 & T2 & T3 & T4 & T5 & T6 & T7 & T8 & T9).
  rewrite Ep in *. cbn [tP tW tC] in *. rewrite Es in *.
  repeat match goal with |- _ /\ _ => split end; try lia.
  - etransitivity; [exact T5|]. apply map_ext. intros k. unfold expected, src, src1.
    rewrite El. cbn [tP]. bf (k <? 0). rewrite Nat.sub_0_r. reflexivity.
  - intros q e Hin. pose proof (T6 q e Hin). lia.
Qed.

(** a worker that only looks: the consumer gets a prefix of what was accepted, as in the two-stage case *)
Corollary FIFO3_init_no_edits c a h : a_init c = Some a -> c_worker c = true -> c_owned c = false ->
  forallb fifo3_op h = true -> snd (srun a h) = true -> edits a h = [] ->
  consumed a h = firstn (length (consumed a h)) (accepted a h).
Proof.
  intros Ha HW HO F OK Hed. destruct (FIFO3_init c a h Ha HW HO F OK) as (T1 & T2 & _).
  rewrite Hed in T1. etransitivity; [exact T1|]. symmetry.
  change (firstn (length (consumed a h)) (accepted a h))
    with (sub (accepted a h) 0 (length (consumed a h))).
  rewrite (sub_map_seq 0%N) by lia. apply map_ext. intros k. reflexivity.
Qed.

(** ** Examples: the hypotheses are satisfiable, and the contract is needed *)
Definition ex_config : config := mkConfig [0; 0; 0; 0]%N true false false.   (* len 4, worker, plain *)

(** three pushes, the worker edits two of the items and releases two, the consumer pops two *)
Definition ex_h1 : list op :=
  [Push 10; Push 20; Push 30; Edit W 0 5; Poke W 1 7; Advance W 2; Pop; Pop]%N.

(** ... then two more pushes (position 4 wraps to slot 0), more edits (position 4 twice) released in
    two steps, a slice read over the wrap, one more push, and a pop that is refused because the
    worker has not released position 5 *)
Definition ex_h2 : list op :=
  ex_h1 ++ [PushSlice [40; 50]; Edit W 0 1; Advance W 1; GetExact W 2; Edit W 0 2; Edit W 1 3;
            Edit W 1 100; Advance W 2; CopySlice 3; Push 60; Pop]%N.

Example FIFO3_example1 :
  exists a, a_init ex_config = Some a /\
    forallb fifo3_op ex_h1 = true /\ snd (srun a ex_h1) = true /\
    accepted a ex_h1 = [10; 20; 30]%N /\
    edits a ex_h1 = [(0, EAdd 5%N); (1, ESet 7%N)] /\
    consumed a ex_h1 = [15; 7]%N /\
    map (expected a ex_h1) (seq 0 2) = [15; 7]%N /\
    ppos (sfinal a ex_h1) = mkTri 3 2 2.
Proof. eexists. split; [reflexivity|]. vm_compute. repeat split. Qed.

Example FIFO3_example2 :
  exists a m, a_init ex_config = Some a /\ init ex_config = Some m /\
    forallb fifo3_op ex_h2 = true /\ snd (srun a ex_h2) = true /\
    accepted a ex_h2 = [10; 20; 30; 40; 50; 60]%N /\
    edits a ex_h2 = [(0, EAdd 5%N); (1, ESet 7%N); (2, EAdd 1%N); (3, EAdd 2%N); (4, EAdd 3%N); (4, EAdd 100%N)] /\
    consumed a ex_h2 = [15; 7; 31; 42; 153]%N /\
    consumed_outs ex_h2 (snd (run m ex_h2)) = [15; 7; 31; 42; 153]%N /\
    map (expected a ex_h2) (seq 0 5) = [15; 7; 31; 42; 153]%N /\
    ppos (sfinal a ex_h2) = mkTri 6 5 5 /\
    a_ring (sfinal a ex_h2) = [153; 60; 31; 42]%N /\            (* positions 4 and 5 sit in slots 0 and 1 *)
    nth 11 (map fst (snd (fst (srun a ex_h2)))) OBad = OSlices 3 [40%N] [50%N].   (* the wrapped window *)
Proof. eexists. eexists. split; [reflexivity|]. split; [reflexivity|]. vm_compute. repeat split. Qed.

(** a worker that writes outside its granted window breaks the contract ([srun] says so), and then
    the statement fails: the access is overwritten by the push *)
Example FIFO3_contract_needed :
  exists a, a_init ex_config = Some a /\
    let h := [Edit W 0 5; Push 10; Advance W 1; Pop]%N in
    forallb fifo3_op h = true /\ snd (srun a h) = false /\
    consumed a h = [10%N] /\ map (expected a h) (seq 0 1) = [15%N].
Proof. eexists. split; [reflexivity|]. vm_compute. repeat split. Qed.

Print Assumptions FIFO3.
Print Assumptions FIFO3_discipline.
Print Assumptions FIFO3_rel.
Print Assumptions FIFO3_init.
Print Assumptions FIFO3_init_no_edits.
