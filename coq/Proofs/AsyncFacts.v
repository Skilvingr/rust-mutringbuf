(** * C14 / C15: polling an async operation *)
From Coq Require Import List Arith Bool.
Import ListNotations.
Require Import MRB.Model.Types MRB.Model.Seq MRB.Spec.Pipe MRB.Model.Async.
Require Import MRB.Proofs.Rel MRB.Proofs.TapeFacts MRB.Proofs.Refine.

Lemma run_cons m o r :
  run m (o :: r) = (fst (run (fst (step m o)) r), snd (step m o) :: snd (run (fst (step m o)) r)).
Proof. cbn [run]. destruct (step m o) as [m1 x]. cbn [fst snd]. destruct (run m1 r). reflexivity. Qed.

Lemma srun_cons a o r :
  srun a (o :: r) = (fst (fst (srun (fst (sstep a o)) r)), snd (sstep a o) :: snd (fst (srun (fst (sstep a o)) r)),
                     ok_op a o && snd (srun (fst (sstep a o)) r)).
Proof. cbn [srun]. destruct (sstep a o) as [a1 x]. cbn [fst snd]. destruct (srun a1 r) as [[a2 xs] okr]. reflexivity. Qed.

Lemma arun_cons s o r :
  arun s (o :: r) = (fst (arun (fst (astep s o)) r), snd (astep s o) :: snd (arun (fst (astep s o)) r)).
Proof. cbn [arun]. destruct (astep s o) as [s1 x]. cbn [fst snd]. destruct (arun s1 r). reflexivity. Qed.

Ltac open_lets := repeat match goal with |- context[let '(_, _) := ?x in _] => destruct x end.

Definition noop_if_quiet (a : pipe) (r : ares) : Prop :=
  refused (fst (snd r)) = true \/ fst (snd r) = OBad -> r = (a, (fst (snd r), [])).

Lemma a_guarded_noop_if_quiet k n work no a : noop_if_quiet a work -> noop_if_quiet a (a_guarded k n work no a).
Proof. intros W. unfold a_guarded. destruct (n <=? a_avail k a); [exact W | intros _; reflexivity]. Qed.

(** by inspection of every branch of [sstep] *)
Lemma sstep_noop_if_quiet a o : noop_if_quiet a (sstep a o).
Proof.
  destruct o; cbn [sstep];
    repeat match goal with
      | |- noop_if_quiet _ (if ?c then _ else _) => destruct c
      | |- noop_if_quiet _ (match ?k with _ => _ end) => destruct k
      end;
    try refine (a_guarded_noop_if_quiet _ _ _ _ _ _); cbv zeta; open_lets;
    lazymatch goal with
    | |- noop_if_quiet ?a (a_ret ?a _) => intros _; reflexivity
    | |- noop_if_quiet ?a (a_bad ?a) => intros _; reflexivity
    | |- _ => intros [H|H]; discriminate H
    end.
Qed.

(** in the Spec a refused request changes nothing and produces no ledger event *)
Lemma sstep_refused_same a o : refused (fst (snd (sstep a o))) = true -> sstep a o = (a, (fst (snd (sstep a o)), [])).
Proof. intros H. apply sstep_noop_if_quiet. left. exact H. Qed.

Lemma poll_frame k f s :
  held (fst (poll k f s)) = held s /\ task (fst (poll k f s)) = task s /\ wakes (fst (poll k f s)) = wakes s.
Proof.
  unfold poll. destruct (step (base s) f) as [m1 [x1 e1]]. destruct (refused x1); [|auto].
  destruct (step m1 f) as [m2 [x2 e2]]. destruct (refused x2); auto.
Qed.

Lemma poll_not_refused k f s : refused (fst (snd (step (base s) f))) = false ->
  poll k f s = (set_base (fst (step (base s) f)) s, snd (step (base s) f)).
Proof. unfold poll. destruct (step (base s) f) as [m1 [x1 e1]]. cbn [fst snd]. intros ->. reflexivity. Qed.

Section Poll.
Variables (s : astate) (a : pipe) (k : stage) (o : op).
Hypothesis R : Rel (base s) a.
Hypothesis OK : ok_op a o = true.

(** the sync attempt succeeds: the poll resolves with its result, and the state is the sync one *)
Theorem poll_ready : refused (fst (snd (step (base s) o))) = false ->
  poll k o s = (set_base (fst (step (base s) o)) s, snd (step (base s) o)) /\
  Rel (fst (step (base s) o)) (fst (sstep a o)) /\ snd (step (base s) o) = snd (sstep a o).
Proof.
  intros H. destruct (step_refines _ _ o R OK) as [E R1]. split; [exact (poll_not_refused k o s H) | auto].
Qed.

(** the sync attempt fails: Pending, no ledger event, the buffer as the Spec sees it is untouched, and the polling
    task's waker is the one registered in the iterator *)
Theorem poll_pending : refused (fst (snd (step (base s) o))) = true ->
  exists m2, poll k o s = (register k (set_base m2 s), (OPending, [])) /\
    Rel m2 a /\ sstep a o = (a, (fst (snd (sstep a o)), [])) /\
    tget k (wk (fst (poll k o s))) = Some (task s) /\ held (fst (poll k o s)) = held s.
Proof.
  intros H. pose proof (step_refines _ _ o R OK) as [E R1].
  assert (Hs : refused (fst (snd (sstep a o))) = true) by (rewrite <- E; exact H).
  pose proof (sstep_refused_same a o Hs) as Same.
  (* the Spec does not move, so the second attempt starts from a related state and is refused like the first *)
  rewrite Same in R1, E. cbn [fst snd] in R1, E.
  pose proof (step_refines _ _ o R1 OK) as [E2 R2]. rewrite Same in R2, E2. cbn [fst snd] in R2, E2.
  exists (fst (step (fst (step (base s) o)) o)).
  assert (P : poll k o s = (register k (set_base (fst (step (fst (step (base s) o)) o)) s), (OPending, []))).
  { unfold poll. destruct (step (base s) o) as [m1 [x1 e1]]. cbn [fst snd] in *. injection E as -> ->. rewrite Hs.
    destruct (step m1 o) as [m2 [x2 e2]]. cbn [fst snd] in *. injection E2 as -> ->. rewrite Hs. reflexivity. }
  rewrite P. cbn [fst wk held register set_base]. rewrite tget_tset_same. auto.
Qed.
End Poll.

(** two Model states related to the same Spec state show the same buffer: indices, flags, contents *)
Lemma same_spec_same_buffer m m' a : Rel m a -> Rel m' a ->
  pub m = pub m' /\ slots m = slots m' /\ flag m = flag m' /\ freed m = freed m' /\
  forall j, tget j (shere a) = true -> ix (it_of j m) = ix (it_of j m') /\ det (it_of j m) = det (it_of j m').
Proof.
  intros R R'. repeat match goal with |- _ /\ _ => split end.
  - pose proof (r_pub _ _ R) as A. pose proof (r_pub _ _ R') as B.
    destruct (pub m) as [p w c], (pub m') as [p' w' c'].
    pose proof (A P); pose proof (A W); pose proof (A C); pose proof (B P); pose proof (B W); pose proof (B C). simpl in *. congruence.
  - rewrite (slots_ring m a R), (slots_ring m' a R'). reflexivity.
  - rewrite (r_flag _ _ R), (r_flag _ _ R'). reflexivity.
  - rewrite (r_freed _ _ R), (r_freed _ _ R'). reflexivity.
  - intros j Hj. destruct (r_it _ _ R j Hj) as (A & B & _). destruct (r_it _ _ R' j Hj) as (A' & B' & _). split; congruence.
Qed.

(** no branch of [astep] writes [wakes]: the model has no wake action, and the theorem says no more than that.  That the
    crate never calls [Waker::wake] is checked on the source by the extractor (gen/Structure.v). *)
Theorem never_woken s o : wakes (fst (astep s o)) = wakes s.
Proof.
  destruct o as [d|f|f|k|k|n|k]; cbn [astep].
  - destruct (direct_of d (base s)) as [k|]; [|reflexivity]. destruct (free_iter k s); [|reflexivity].
    destruct (step (base s) d). reflexivity.
  - destruct (future_of f) as [k|]; [|reflexivity].
    destruct (free_iter k s && negb (det (it_of k (base s)))); [apply poll_frame | reflexivity].
  - destruct (future_of f) as [k|]; [|reflexivity].
    destruct (free_iter k s && negb (det (it_of k (base s)))); [|reflexivity].
    destruct (poll_frame k f s) as (_ & _ & H). destruct (poll k f s) as [s1 [[] e]]; exact H.
  - destruct (tget k (held s)) as [f|]; [|reflexivity].
    destruct (poll_frame k f s) as (_ & _ & H). destruct (poll k f s) as [s1 [[] e]]; exact H.
  - destruct (tget k (held s)); reflexivity.
  - reflexivity.
  - destruct (free_iter k s && usable k (base s) && negb (det (it_of k (base s)))); reflexivity.
Qed.

Theorem never_woken_run h : forall s, wakes (fst (arun s h)) = wakes s.
Proof.
  induction h as [|o r IH]; intros s; [reflexivity|]. rewrite arun_cons. cbn [fst]. rewrite IH. apply never_woken.
Qed.

(** * P-tie: [MRBFuture::poll] as the source runs it (gen/PollGen.v: the body executed symbolically on every run - one attempt; if it
      fails, registration of the polling task's waker, then a second attempt; [Pending] only after that) is the Model's [poll]. *)
Require Import MRB.Model.PollShape MRB.gen.PollGen.

Theorem poll_is_source_shape k o s : poll_by_shape PollGen.poll_shape k o s = Some (poll k o s).
Proof.
  unfold PollGen.poll_shape, poll. cbn [poll_by_shape run_entry run_events].
  destruct (step (base s) o) as [m1 [x1 e1]] eqn:E1. cbn [app].
  destruct (refused x1) eqn:R1; cbn [negb Bool.eqb].
  - change (base (register k (set_base m1 s))) with m1.
    destruct (step m1 o) as [m2 [x2 e2]] eqn:E2.
    destruct (refused x2) eqn:R2; cbn [negb Bool.eqb]; reflexivity.
  - reflexivity.
Qed.

Theorem poll_source_closed : PollGen.poll_clean = true.
Proof. reflexivity. Qed.
