(** * The translated source refines the Spec: composing the D-tie (translated function = Model function) with the refinement theorem
      (Model step refines Spec step).  For every Model state related to a Spec state and every usable / attached iterator, running the
      function TRANSLATED FROM THE RUST SOURCE answers what the tape Spec answers, and leaves cells, local index, remembered
      availability, publication, clone identities and ledger of a state that is again related to the Spec's next state. *)
From Coq Require Import List Bool.
Import ListNotations.
Require Import MRB.Base.ListAux MRB.Model.Types MRB.Model.Seq MRB.Model.KernelM MRB.Model.DataM MRB.Spec.Pipe.
Require Import MRB.Proofs.Rel MRB.Proofs.Refine MRB.gen.DataFns MRB.Proofs.DataTie MRB.Proofs.DataTieSlices MRB.Proofs.DataTieRel.


Section S.
Variables (m : mstate) (a : pipe).
Hypothesis R : Rel m a.
Hypothesis Hmax : mlen m + mlen m < usize_max.

Lemma att_det k : a_attached k a = true -> det (it_of k m) = false /\ a_usable k a = true /\ attached k m = true.
Proof.
  intros A. pose proof (attached_eq m a k R) as E. rewrite A in E.
  unfold a_attached in A. apply andb_prop in A as [U D].
  unfold attached in E. apply andb_prop in E as [_ E]. apply negb_true_iff in E.
  repeat split; auto. unfold attached. rewrite (usable_eq m a k R), U, E. reflexivity.
Qed.

(** what the Spec answers to an operation it allows, given what the Model's function for it does *)
Lemma spec_answers o (X : res) : ok_op a o = true -> step m o = X -> exists a', sstep a o = (a', snd X) /\ Rel (fst X) a'.
Proof.
  intros OK <-. destruct (step_refines m a o R OK) as [E Rl]. destruct (sstep a o) as [a' x]. exists a'. cbn [fst snd] in *. rewrite E. auto.
Qed.

(** [push] *)
Theorem push_source_refines_spec v src out : a_attached P a = true ->
  exists r d, drun (d_push (denv_of P m src) v) (view P m out) = Some (r, d) /\
    let '(a', (o, evs)) := sstep a (Push v) in
    (match r, o with Ok _, OOk => True | Err x, OErr y => x = y /\ x = v | _, _ => False end) /\
    exists m', Rel m' a' /\ agrees P m' (match r with Ok _ => [tP (pub m')] | Err _ => [] end) evs d.
Proof.
  intros A. destruct (att_det P A) as (D & U & At).
  destruct (tie_push m src out v (rel_wf m a P R U Hmax) D) as (r & d & Run & Res).
  exists r, d. split; [exact Run|].
  destruct (spec_answers (Push v) (push SAssign v m) eq_refl) as (a' & -> & Rl); [cbn [step]; rewrite At; reflexivity|].
  unfold push_res in Res. destruct (push SAssign v m) as [m' [o evs]]. destruct Res as (Ag & _ & Ho). split; [exact Ho|]. exists m'. split; assumption.
Qed.

(** [pop] *)
Theorem pop_source_refines_spec src out : a_attached C a = true ->
  exists r d, drun (d_pop (denv_of C m src)) (view C m out) = Some (r, d) /\
    let '(a', (o, evs)) := sstep a Pop in
    (match r, o with Some v, OVal v' => v = v' | None, ONone => True | _, _ => False end) /\
    exists m', Rel m' a' /\ agrees C m' (match r with Some _ => [tC (pub m')] | None => [] end) evs d.
Proof.
  intros A. destruct (att_det C A) as (D & U & At).
  destruct (tie_pop_wrappers m src out (rel_wf m a C R U Hmax) D) as (_ & r & d & Run & Res).
  exists r, d. split; [exact Run|].
  destruct (spec_answers Pop (pop false m) eq_refl) as (a' & -> & Rl); [cbn [step]; rewrite At; reflexivity|].
  unfold pop_res in Res. destruct (pop false m) as [m' [o evs]]. destruct Res as (Ag & _ & Ho). split; [exact Ho|]. exists m'. split; assumption.
Qed.

(** [push_slice_clone_init] (owned or plain items) *)
Theorem push_slice_clone_init_source_refines_spec vs out : a_attached P a = true ->
  exists r d, drun (d_push_slice_clone_init (denv_of P m vs) (src_sl (denv_of P m vs))) (view P m out) = Some (r, d) /\
    let '(a', (o, evs)) := sstep a (PushSliceCloneInit vs) in
    (match r, o with Some _, OOk => True | None, ONone => True | _, _ => False end) /\
    exists m' evs0, Rel m' a' /\ agrees P m' (match r with Some _ => [tP (pub m')] | None => [] end) evs0 d /\ evs0 = evs.
Proof.
  intros A. destruct (att_det P A) as (D & U & At).
  destruct (tie_push_slice_clone_init m vs out (rel_wf m a P R U Hmax) D) as (r & d & Run & Res).
  exists r, d. split; [exact Run|].
  destruct (spec_answers (PushSliceCloneInit vs) (push_slice SInit true vs m) eq_refl) as (a' & -> & Rl); [cbn [step]; rewrite At; reflexivity|].
  unfold push_slice_res in Res. destruct (push_slice SInit true vs m) as [m' [o evs]]. destruct Res as (Ag & _ & Ho).
  split; [exact Ho|]. exists m', evs. auto.
Qed.

(** [get_workable_slice_exact] on any usable iterator (attached or detached): the two raw slices of the source are the Spec's window *)
Theorem slice_exact_source_refines_spec k n src out : a_usable k a = true ->
  exists r d, drun (d_get_workable_slice_exact (denv_of k m src) n) (view k m out) = Some (r, d) /\
    let '(a', (o, _)) := sstep a (GetExact k n) in
    (match r, o with
     | Some (s1, s2), OSlices i h t => s_off s1 = i /\ h = sub (slots m) (s_off s1) (s_len s1) /\ t = sub (slots m) (s_off s2) (s_len s2) /\ s_len s1 + s_len s2 = n
     | None, ONone => True
     | _, _ => False
     end) /\
    exists m', Rel m' a' /\ agrees k m' [] [] d.
Proof.
  intros U.
  destruct (tie_slice_wrappers k m src out n (rel_wf m a k R U Hmax)) as ((r & d & Run & Res) & _).
  exists r, d. split; [exact Run|].
  destruct (spec_answers (GetExact k n) (grant k n m) eq_refl) as (a' & -> & Rl); [cbn [step]; rewrite (usable_eq m a k R), U; reflexivity|].
  unfold grant_res in Res. destruct (grant k n m) as [m' [o evs]]. destruct Res as (Ag & _ & Ho). split.
  - destruct r as [[s1 s2]|], o; try contradiction; auto.
    destruct Ho as (E1 & E2 & Hh & Ht & _ & _ & Hs). subst s1 s2. cbn [s_off s_len] in *. repeat split; auto.
  - exists m'. split; assumption.
Qed.
End S.
