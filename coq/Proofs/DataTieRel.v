(** * The preconditions of the D-tie hold in every state related to a Spec state (hence in every state reachable by a
      contract-respecting history, [run_refines]) for every usable iterator, provided [2*len] is representable. *)
From Coq Require Import Arith Lia.
Require Import MRB.Model.Types MRB.Model.Seq MRB.Model.KernelM MRB.Spec.Pipe MRB.Proofs.Rel MRB.Proofs.DataTie.

Theorem rel_wf m a k : Rel m a -> a_usable k a = true -> mlen m + mlen m < usize_max -> wf k m.
Proof.
  intros R U Hmax. pose proof (usable_here _ _ U) as H.
  destruct (r_it _ _ R k H) as (_ & Hix & Hca).
  pose proof (r_pos _ _ R) as Hl. pose proof (r_len _ _ R) as Hlen.
  pose proof (window_bounds m a k R U) as [Hlo Hhi].
  constructor.
  - rewrite Hix, Hlen. apply Nat.mod_upper_bound. lia.
  - unfold succ_idx. rewrite Hlen.
    pose proof (r_pub _ _ R P) as EP. pose proof (r_pub _ _ R W) as EW. pose proof (r_pub _ _ R C) as EC. simpl in EP, EW, EC.
    destruct k; [rewrite EC | rewrite EP | destruct (hasW m); [rewrite EW | rewrite EP]]; apply Nat.mod_upper_bound; lia.
  - rewrite (r_slots _ _ R). lia.
  - exact Hmax.
  - rewrite Hlen. lia.
Qed.
