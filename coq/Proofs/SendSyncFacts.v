(** * C16: facts about the auto-trait model *)
From Coq Require Import List Bool.
Require Import MRB.Model.SendSync.

Lemma all_wty_complete t : In t all_wty.
Proof.
  apply in_flat_map. exists (match t with Plain i | Async i | Det i | ADet i => i end). split.
  - destruct t as [[]|[]|[]|[]]; cbn; auto.
  - destruct t; cbn; auto.
Qed.

Lemma forallb_bools g b : forallb g bools = true -> g b = true.
Proof. intros H. apply andb_prop in H as [Ht H]. apply andb_prop in H as [Hf _]. destruct b; assumption. Qed.

Lemma forallb_instances (f : wty -> bool -> bool -> bool -> bool) :
  forallb (fun t => forallb (fun c => forallb (fun s => forallb (fun y => f t c s y) bools) bools) bools) all_wty = true ->
  forall t c s y, f t c s y = true.
Proof.
  intros H t c s y. rewrite forallb_forall in H.
  exact (forallb_bools _ y (forallb_bools _ s (forallb_bools _ c (H t (all_wty_complete t))))).
Qed.

Lemma entry_sound (send sync c s : bool) : implb send (c && s) && negb sync = true ->
  (send = true -> c = true /\ s = true) /\ sync = false.
Proof.
  intros H. apply andb_prop in H as [H1 H2]. apply negb_true_iff in H2. split; [|exact H2].
  intros ->. apply andb_prop. exact H1.
Qed.

(** the decidable check is sound for every instantiation of wrapper, buffer kind and item type *)
Theorem c16_ok_sound cls : c16_ok cls = true ->
  forall t conc s y,
    (is_send cls conc s y t = true -> conc = true /\ s = true) /\ is_sync cls conc s y t = false.
Proof.
  intros H t conc s y. apply entry_sound.
  exact (forallb_instances (fun t c s y => implb (is_send cls c s y t) (c && s) && negb (is_sync cls c s y t)) H t conc s y).
Qed.

(** a sufficient condition on impl headers, for any set of impls: iterators bounded on a concurrent buffer and a
    Send item, wrappers bounded on a Send iterator, and no Sync impl at all *)
Definition is_iter_con (c : tycon) : bool :=
  match c with TDet | TADet | TFut => false | _ => true end.

Definition well_bounded (cl : clause) : bool :=
  trait_eqb (cl_trait cl) TrSend &&
  (if is_iter_con (cl_type cl) then cl_conc cl && cl_item_send cl else cl_inner_send cl).

Lemma tycon_eqb_eq a b : tycon_eqb a b = true -> a = b.
Proof. destruct a, b; (reflexivity || discriminate). Qed.

Lemma trait_eqb_eq a b : trait_eqb a b = true -> a = b.
Proof. destruct a, b; (reflexivity || discriminate). Qed.

Section Bounded.
Variables (cls : list clause) (conc s y : bool).
Hypothesis WB : forallb well_bounded cls = true.

Lemma holds_bounded tr c inner : holds cls conc s y tr c inner = true ->
  tr = TrSend /\ if is_iter_con c then conc = true /\ s = true else inner = true.
Proof.
  intros H. apply existsb_exists in H as (cl & Hin & H).
  apply (proj1 (forallb_forall _ _) WB), andb_prop in Hin as [Htr B].
  apply andb_prop in H as [H Hi]. apply andb_prop in H as [H _]. apply andb_prop in H as [H Hs].
  apply andb_prop in H as [H Hc]. apply andb_prop in H as [Hty Htr'].
  apply tycon_eqb_eq in Hty as <-. apply trait_eqb_eq in Htr' as <-. split; [apply trait_eqb_eq, Htr|].
  destruct (is_iter_con (cl_type cl)).
  - apply andb_prop in B as [Bc Bs]. rewrite Bc in Hc. rewrite Bs in Hs. auto.
  - rewrite B in Hi. exact Hi.
Qed.

Lemma iter_send c : is_iter_con c = true -> holds cls conc s y TrSend c false = true -> conc = true /\ s = true.
Proof. intros IC H. apply holds_bounded in H as [_ H]. rewrite IC in H. exact H. Qed.

Lemma plain_is_iter i : is_iter_con (plain_con i) = true. Proof. destruct i; reflexivity. Qed.
Lemma async_is_iter i : is_iter_con (async_con i) = true. Proof. destruct i; reflexivity. Qed.

Lemma bounded_send t : is_send cls conc s y t = true -> conc = true /\ s = true.
Proof.
  destruct t as [i|i|i|i]; cbn [is_send]; intros H.
  - exact (iter_send _ (plain_is_iter i) H).
  - exact (iter_send _ (async_is_iter i) H).
  - apply holds_bounded in H as [_ H]. exact (iter_send _ (plain_is_iter i) H).
  - apply holds_bounded in H as [_ H]. exact (iter_send _ (async_is_iter i) H).
Qed.

Lemma bounded_sync t : is_sync cls conc s y t = false.
Proof.
  apply not_true_is_false. intros H.
  destruct t; cbn [is_sync] in H; apply holds_bounded in H as [H _]; discriminate H.
Qed.
End Bounded.

Theorem well_bounded_suffices cls : forallb well_bounded cls = true ->
  forall t conc s y,
    (is_send cls conc s y t = true -> conc = true /\ s = true) /\ is_sync cls conc s y t = false.
Proof. intros WB t conc s y. split; [apply bounded_send | apply bounded_sync]; exact WB. Qed.

(** and conversely the bounds are not vacuous: a concurrent buffer over a Send item is sendable *)
Definition sendable_when_expected (cls : list clause) : bool :=
  forallb (fun t => forallb (fun y => is_send cls true true y t) bools) all_wty.

Theorem c16_fut_ok_sound cls : c16_fut_ok cls = true ->
  forall t conc s y,
    (fut_send cls conc s y t = true -> conc = true /\ s = true) /\ fut_sync cls conc s y t = false.
Proof.
  intros H t conc s y. apply entry_sound.
  exact (forallb_instances (fun t c s y => implb (fut_send cls c s y t) (c && s) && negb (fut_sync cls c s y t)) H t conc s y).
Qed.
