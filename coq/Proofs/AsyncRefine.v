(** * C14 for whole async histories: an async history is observationally the synchronous history of its successful polls.

    [AsyncFacts] describes ONE poll; here its facts are lifted to arbitrary interleavings of direct calls, polls, kept
    (Pending) futures, re-polls, dropped futures and task switches.  [erase s h] is the synchronous history the async
    history [h] amounts to when started in [s]; the whole run refines the Spec's run of it, ledger included.

    A Pending poll DOES change the Model (it refreshes the remembered availability, twice) but not the Spec state:
    [Rel] absorbs this, which is why the statements go through the Spec. *)
From Coq Require Import List Arith NArith Bool Lia.
Import ListNotations.
Require Import MRB.Base.ListAux MRB.Model.Types MRB.Model.Seq MRB.Spec.Pipe MRB.Model.Async.
Require Import MRB.Proofs.Rel MRB.Proofs.TapeFacts MRB.Proofs.Refine MRB.Proofs.SpecFacts MRB.Proofs.AsyncFacts.

(** a result the caller can act on: neither "not yet" nor "no such call in this state".  ([visible], [is_pending], [gate_fut]
    would sit beside [refused] in Model/Async.v; that file holds declarations only.) *)
Definition visible (x : out) : bool := match x with OPending | OBad => false | _ => true end.

Definition is_pending (x : out) : bool := match x with OPending => true | _ => false end.

Lemma guarded_visible k n work no m : (forall m1, visible (fst (snd (work m1))) = true) -> visible no = true ->
  visible (fst (snd (guarded k n work no m))) = true.
Proof. intros W N. unfold guarded. destruct (check k n m) as [[] m1]; [apply W | exact N]. Qed.

Lemma grant_visible k n m : visible (fst (snd (grant k n m))) = true.
Proof. apply guarded_visible; [intros m1; open_lets|]; reflexivity. Qed.

Definition rejected_or_answers (m : mstate) (r : res) : Prop := r = bad m \/ visible (fst (snd r)) = true.

Lemma step_rejected_or_answers m o : rejected_or_answers m (step m o).
Proof.
  destruct o; cbn [step];
    repeat match goal with
      | |- rejected_or_answers _ (if ?c then _ else _) => destruct c
      | |- rejected_or_answers _ (match ?k with P => _ | _ => _ end) => destruct k
      end;
    lazymatch goal with |- rejected_or_answers _ (bad _) => left; reflexivity | |- _ => right end;
    try (apply guarded_visible; [intros m1; open_lets|]; reflexivity); try reflexivity; unfold refresh; cbv zeta.
  - destruct (fresh k m); [reflexivity | apply grant_visible].
  - destruct r; [reflexivity|]. destruct (_ - _); [reflexivity | apply grant_visible].
Qed.

Lemma step_not_pending m o : fst (snd (step m o)) <> OPending.
Proof. destruct (step_rejected_or_answers m o) as [->|V]; [discriminate|]. intros E. rewrite E in V. discriminate V. Qed.

Lemma step_bad_same m o : fst (snd (step m o)) = OBad -> step m o = (m, (OBad, [])).
Proof. intros E. destruct (step_rejected_or_answers m o) as [B|V]; [exact B|]. rewrite E in V. discriminate V. Qed.

(** only operations without a [# Safety] rule can be refused: a refused attempt is always within the contract *)
Lemma refused_ok m a o : refused (fst (snd (step m o))) = true -> ok_op a o = true.
Proof.
  destruct o; cbn [ok_op]; try reflexivity; cbn [step]; unfold poke, edit, ret, rete, bad;
    repeat match goal with |- context[if ?c then _ else _] => destruct c end; discriminate.
Qed.

Lemma direct_not_future g m j : direct_of g m = Some j -> future_of g = None.
Proof. destruct g; intros H; (reflexivity || discriminate H). Qed.

(** operations that exist as futures have no [# Safety] rule *)
Lemma future_ok a f k : future_of f = Some k -> ok_op a f = true.
Proof. destruct f; cbn [future_of ok_op]; intros H; try discriminate; reflexivity. Qed.

Lemma sstep_bad_same a o : fst (snd (sstep a o)) = OBad -> sstep a o = (a, (OBad, [])).
Proof. intros H. rewrite <- H. apply sstep_noop_if_quiet. right. exact H. Qed.

(** the synchronous operation an async step attempts *)
Definition attempt (s : astate) (o : aop) : option op :=
  match o with
  | ADirect d | APoll d | AHold d => Some d
  | ARepoll k => tget k (held s)
  | ADropFut _ | ASetTask _ | ARewrap _ => None
  end.

(** the synchronous operation an async step performs: the attempted one, if the step answers with a result *)
Definition performed (s : astate) (o : aop) : option op :=
  match attempt s o with
  | Some f => if visible (fst (snd (astep s o))) then Some f else None
  | None => None
  end.

Fixpoint erase (s : astate) (h : list aop) : list op :=
  match h with
  | [] => []
  | o :: r => (match performed s o with Some f => [f] | None => [] end) ++ erase (fst (astep s o)) r
  end.

(** the results (answer and ledger events) of the performing steps, in order *)
Fixpoint obs (s : astate) (h : list aop) : list (out * list lev) :=
  match h with
  | [] => []
  | o :: r => (match performed s o with Some _ => [snd (astep s o)] | None => [] end) ++ obs (fst (astep s o)) r
  end.

Definition ledger (xs : list (out * list lev)) : list lev := concat (map snd xs).

Lemma arun_app h1 : forall s h2,
  fst (arun s (h1 ++ h2)) = fst (arun (fst (arun s h1)) h2) /\
  snd (arun s (h1 ++ h2)) = snd (arun s h1) ++ snd (arun (fst (arun s h1)) h2).
Proof.
  induction h1 as [|o r IH]; intros s h2; [auto|].
  rewrite <- app_comm_cons, !arun_cons. cbn [fst snd]. destruct (IH (fst (astep s o)) h2) as [-> ->]. auto.
Qed.

Lemma erase_app h1 : forall s h2, erase s (h1 ++ h2) = erase s h1 ++ erase (fst (arun s h1)) h2.
Proof.
  induction h1 as [|o r IH]; intros s h2; [reflexivity|].
  rewrite <- app_comm_cons, arun_cons. cbn [erase fst]. rewrite IH, app_assoc. reflexivity.
Qed.

Lemma obs_app h1 : forall s h2, obs s (h1 ++ h2) = obs s h1 ++ obs (fst (arun s h1)) h2.
Proof.
  induction h1 as [|o r IH]; intros s h2; [reflexivity|].
  rewrite <- app_comm_cons, arun_cons. cbn [obs fst]. rewrite IH, app_assoc. reflexivity.
Qed.

Lemma base_set_held k x s : base (set_held k x s) = base s.  Proof. reflexivity. Qed.
Lemma base_set_base m s : base (set_base m s) = m.           Proof. reflexivity. Qed.

(** a poll never answers with a refusal: that is what Pending stands for *)
Lemma poll_out_not_refused k f s : refused (fst (snd (poll k f s))) = false.
Proof.
  unfold poll. destruct (step (base s) f) as [m1 [x1 e1]]. destruct (refused x1) eqn:R1; [|exact R1].
  destruct (step m1 f) as [m2 [x2 e2]]. destruct (refused x2) eqn:R2; [reflexivity | exact R2].
Qed.

(** [m'], [x]: the buffer a step that attempts [f] leaves, and its answer *)
Definition performs_or_silent (a : pipe) (f : op) (m' : mstate) (x : out * list lev) : Prop :=
  (visible (fst x) = true /\ (ok_op a f = true -> Rel m' (fst (sstep a f)) /\ x = snd (sstep a f))) \/
  (visible (fst x) = false /\ Rel m' a /\ snd x = []).

Lemma performs a f m' x : performs_or_silent a f m' x -> visible (fst x) = true -> ok_op a f = true ->
  Rel m' (fst (sstep a f)) /\ x = snd (sstep a f).
Proof. intros [[_ H]|[V _]] V' OK; [exact (H OK) | congruence]. Qed.

Lemma silent a f m' x : performs_or_silent a f m' x -> visible (fst x) = false -> Rel m' a /\ snd x = [].
Proof. intros [[V _]|[_ H]] V'; [congruence | exact H]. Qed.

Lemma step_sim m a f : Rel m a -> performs_or_silent a f (fst (step m f)) (snd (step m f)).
Proof.
  intros R. destruct (visible (fst (snd (step m f)))) eqn:V; [left | right]; split; auto.
  - intros OK. destruct (step_refines _ _ f R OK). auto.
  - destruct (fst (snd (step m f))) eqn:X; try discriminate V.
    + destruct (step_not_pending _ _ X).
    + rewrite (step_bad_same _ _ X). auto.
Qed.

Lemma poll_sim s a k f : Rel (base s) a -> performs_or_silent a f (base (fst (poll k f s))) (snd (poll k f s)).
Proof.
  intros R. destruct (refused (fst (snd (step (base s) f)))) eqn:Rf.
  - destruct (poll_pending s a k f R (refused_ok _ a _ Rf) Rf) as (m2 & -> & R2 & _). right. auto.
  - rewrite (poll_not_refused k f s Rf). apply step_sim, R.
Qed.

Definition gate_fut (k : stage) (s : astate) : bool := free_iter k s && negb (det (it_of k (base s))).

Lemma fut_gate s f :
  (exists k, future_of f = Some k /\ gate_fut k s = true) \/
  astep s (APoll f) = (s, (OBad, [])) /\ astep s (AHold f) = (s, (OBad, [])).
Proof.
  cbn [astep]. destruct (future_of f) as [k|]; [|auto]. fold (gate_fut k s). destruct (gate_fut k s) eqn:G; eauto.
Qed.

Lemma on_pending {A} x (a b : A) : match x with OPending => a | _ => b end = if is_pending x then a else b.
Proof. destruct x; reflexivity. Qed.

Lemma visible_not_pending x : visible x = true -> is_pending x = false.
Proof. destruct x; (reflexivity || discriminate). Qed.

Lemma not_pending x : x <> OPending -> is_pending x = false.
Proof. intros H. destruct x; (reflexivity || destruct H; reflexivity). Qed.

Lemma astep_poll_shape s f k : future_of f = Some k -> gate_fut k s = true ->
  astep s (APoll f) = poll k f s.
Proof. unfold gate_fut. intros F G. cbn [astep]. rewrite F, G. reflexivity. Qed.

Lemma astep_hold_shape s f k : future_of f = Some k -> gate_fut k s = true ->
  snd (astep s (AHold f)) = snd (poll k f s) /\
  base (fst (astep s (AHold f))) = base (fst (poll k f s)) /\
  held (fst (astep s (AHold f))) =
    if is_pending (fst (snd (poll k f s))) then tset k (Some f) (held s) else held s.
Proof.
  unfold gate_fut. intros F G. cbn [astep]. rewrite F, G.
  destruct (poll_frame k f s) as (H & _). rewrite <- H. destruct (poll k f s) as [s1 [x e]]. rewrite on_pending.
  cbn [fst snd]. destruct (is_pending x); repeat split.
Qed.

Lemma astep_repoll_shape s f k : tget k (held s) = Some f ->
  snd (astep s (ARepoll k)) = snd (poll k f s) /\
  base (fst (astep s (ARepoll k))) = base (fst (poll k f s)) /\
  held (fst (astep s (ARepoll k))) =
    if is_pending (fst (snd (poll k f s))) then held s else tset k None (held s).
Proof.
  intros Hh. cbn [astep]. rewrite Hh.
  destruct (poll_frame k f s) as (H & _). rewrite <- H. destruct (poll k f s) as [s1 [x e]]. rewrite on_pending.
  cbn [fst snd]. destruct (is_pending x); repeat split.
Qed.

(** every step that attempts [f] is a rejection, a synchronous call of [f] or a poll of [f] *)
Lemma astep_sim s a o f : Rel (base s) a -> attempt s o = Some f ->
  performs_or_silent a f (base (fst (astep s o))) (snd (astep s o)).
Proof.
  intros R At. assert (Rejected : performs_or_silent a f (base s) (OBad, [])) by (right; auto).
  destruct o as [d|d|d|k|k|n|k]; cbn [attempt] in At; try discriminate At; try injection At as ->.
  - cbn [astep]. destruct (direct_of f (base s)) as [k|]; [|exact Rejected].
    destruct (free_iter k s); [|exact Rejected].
    pose proof (step_sim _ a f R) as H. destruct (step (base s) f). exact H.
  - destruct (fut_gate s f) as [(k & F & G)|[-> _]]; [|exact Rejected].
    rewrite (astep_poll_shape s f k F G). apply poll_sim, R.
  - destruct (fut_gate s f) as [(k & F & G)|[_ ->]]; [|exact Rejected].
    destruct (astep_hold_shape s f k F G) as (-> & -> & _). apply poll_sim, R.
  - destruct (astep_repoll_shape s f k At) as (-> & -> & _). apply poll_sim, R.
Qed.

Lemma astep_performed s a o f : Rel (base s) a -> performed s o = Some f -> ok_op a f = true ->
  Rel (base (fst (astep s o))) (fst (sstep a f)) /\ snd (astep s o) = snd (sstep a f).
Proof.
  intros R Pf OK. unfold performed in Pf.
  destruct (attempt s o) as [g|] eqn:At; [|discriminate].
  destruct (visible (fst (snd (astep s o)))) eqn:V; [|discriminate]. injection Pf as ->.
  exact (performs _ _ _ _ (astep_sim s a o f R At) V OK).
Qed.

(** a Pending poll, a rejected call, a dropped future, a task switch; no contract needed *)
Lemma astep_silent s a o : Rel (base s) a -> performed s o = None ->
  Rel (base (fst (astep s o))) a /\ snd (snd (astep s o)) = [].
Proof.
  intros R Pf. unfold performed in Pf. destruct (attempt s o) as [f|] eqn:At.
  - apply (silent _ _ _ _ (astep_sim s a o f R At)). destruct (visible _); [discriminate Pf | reflexivity].
  - destruct o as [d|d|d|k|k|n|k]; try discriminate At; cbn [astep attempt] in *.
    + rewrite At. split; [exact R | reflexivity].
    + destruct (tget k (held s)); split; (exact R || reflexivity).
    + split; [exact R | reflexivity].
    + destruct (free_iter k s && usable k (base s) && negb (det (it_of k (base s)))); split; (exact R || reflexivity).
Qed.

(** THE THEOREM.  For every async history, started in any async state whose buffer is related to a Spec state: if
    the erased (synchronous) history respects the contract, then
    - the buffer after the async run is related to the Spec state after the erased run,
    - the results of the performing steps are exactly the Spec's results of the erased run,
    - the ledger of the whole async run is the Spec's ledger: the steps that are not in the erased history - Pending
      polls in particular - took, dropped, duplicated and lost nothing. *)
Theorem async_refines h : forall s a, Rel (base s) a -> snd (srun a (erase s h)) = true ->
  Rel (base (fst (arun s h))) (fst (fst (srun a (erase s h)))) /\
  obs s h = snd (fst (srun a (erase s h))) /\
  ledger (snd (arun s h)) = ledger (snd (fst (srun a (erase s h)))).
Proof.
  induction h as [|o r IH]; intros s a R OK; [cbn; auto|].
  rewrite arun_cons. cbn [erase obs fst snd] in *. unfold ledger in *. cbn [map concat].
  destruct (performed s o) as [f|] eqn:Pf; cbn [app] in *.
  - rewrite srun_cons in *. cbn [fst snd] in *. apply andb_prop in OK as [OKf OKr].
    destruct (astep_performed s a o f R Pf OKf) as [R1 ->].
    destruct (IH _ _ R1 OKr) as (R2 & -> & ->). auto.
  - destruct (astep_silent s a o R Pf) as [R1 ->].
    destruct (IH _ _ R1 OK) as (R2 & -> & ->). auto.
Qed.

(** the same against the sequential Model: the async run and the synchronous run of the erased history give the same
    results and the same ledger, and end in states that show the same buffer (published indices, slot contents,
    liveness flags, storage; local index and detached flag of every iterator that still exists) - they may differ
    in the remembered availabilities only. *)
Theorem async_is_sync h s a : Rel (base s) a -> snd (srun a (erase s h)) = true ->
  let m_async := base (fst (arun s h)) in
  let m_sync := fst (run (base s) (erase s h)) in
  obs s h = snd (run (base s) (erase s h)) /\
  ledger (snd (arun s h)) = ledger (snd (run (base s) (erase s h))) /\
  pub m_async = pub m_sync /\ slots m_async = slots m_sync /\ flag m_async = flag m_sync /\ freed m_async = freed m_sync /\
  (forall j, here (it_of j m_async) = here (it_of j m_sync)) /\
  (forall j, here (it_of j m_async) = true ->
     ix (it_of j m_async) = ix (it_of j m_sync) /\ det (it_of j m_async) = det (it_of j m_sync)).
Proof.
  intros R OK. cbv zeta.
  destruct (async_refines h s a R OK) as (R2 & O2 & L2).
  pose proof (run_refines (erase s h) (base s) a R) as RR.
  destruct (srun a (erase s h)) as [[a' ys] ok]. cbn [fst snd] in *. subst ok. specialize (RR eq_refl).
  destruct (run (base s) (erase s h)) as [m' xs]. cbn [fst snd]. destruct RR as [-> R'].
  destruct (same_spec_same_buffer _ _ _ R2 R') as (A & B & C0 & D & E).
  repeat match goal with |- _ /\ _ => split end; auto.
  - intros j. rewrite (r_here _ _ R2 j), (r_here _ _ R' j). reflexivity.
  - intros j Hj. apply E. rewrite <- (r_here _ _ R2 j). exact Hj.
Qed.

(** the steps that end the life of the future kept on iterator [k]: a re-poll that is not Pending, and the drop *)
Definition releases (k : stage) (s : astate) (o : aop) : bool :=
  match o with
  | ARepoll k' => stage_eqb k k' && negb (is_pending (fst (snd (astep s o))))
  | ADropFut k' => stage_eqb k k'
  | _ => false
  end.

Fixpoint kept (k : stage) (s : astate) (h : list aop) : bool :=
  match h with
  | [] => true
  | o :: r => negb (releases k s o) && kept k (fst (astep s o)) r
  end.

Lemma kept_app k h1 : forall s h2, kept k s (h1 ++ h2) = kept k s h1 && kept k (fst (arun s h1)) h2.
Proof.
  induction h1 as [|o r IH]; intros s h2; [reflexivity|].
  rewrite <- app_comm_cons, arun_cons. cbn [kept fst]. rewrite IH, andb_assoc. reflexivity.
Qed.

Lemma held_at k s o : tget k (held (fst (astep s o))) =
  if releases k s o then None else
  match o with
  | AHold f => match future_of f with
               | Some j => if stage_eqb k j && gate_fut j s && is_pending (fst (snd (astep s o))) then Some f
                           else tget k (held s)
               | None => tget k (held s)
               end
  | _ => tget k (held s)
  end.
Proof.
  assert (Set_ : forall j x, tget k (tset j x (held s)) = if stage_eqb k j then x else tget k (held s)).
  { intros j x. destruct (stage_eqb_spec k j) as [<-|Ne]; [apply tget_tset_same | apply tget_tset_other; congruence]. }
  destruct o as [d|d|d|j|j|n|j]; cbn [releases].
  - cbn [astep]. destruct (direct_of d (base s)) as [j|]; [|reflexivity].
    destruct (free_iter j s); [|reflexivity]. destruct (step (base s) d). reflexivity.
  - destruct (fut_gate s d) as [(j & F & G)|[-> _]]; [|reflexivity].
    rewrite (astep_poll_shape s d j F G). destruct (poll_frame j d s) as (-> & _). reflexivity.
  - destruct (fut_gate s d) as [(j & F & G)|[_ ->]].
    + rewrite F, G, andb_true_r. destruct (astep_hold_shape s d j F G) as (-> & _ & ->).
      destruct (is_pending (fst (snd (poll j d s)))); [rewrite Set_|]; rewrite ?andb_true_r, ?andb_false_r; reflexivity.
    + cbn [fst snd is_pending]. destruct (future_of d); rewrite ?andb_false_r; reflexivity.
  - destruct (tget j (held s)) as [g|] eqn:Hj.
    + destruct (astep_repoll_shape s g j Hj) as (-> & _ & ->).
      destruct (is_pending (fst (snd (poll j g s)))); [|rewrite Set_]; rewrite ?andb_true_r, ?andb_false_r; reflexivity.
    + cbn [astep]. rewrite Hj. cbn [fst snd is_pending negb]. rewrite andb_true_r.
      destruct (stage_eqb_spec k j) as [<-|Ne]; [exact Hj | reflexivity].
  - cbn [astep]. destruct (tget j (held s)) eqn:Hj; cbn [fst held set_held]; [apply Set_|].
    destruct (stage_eqb_spec k j) as [<-|Ne]; [exact Hj | reflexivity].
  - reflexivity.
  - cbn [astep]. destruct (free_iter j s && usable j (base s) && negb (det (it_of j (base s)))); reflexivity.
Qed.

Lemma hold_pending s f : fst (snd (astep s (AHold f))) = OPending ->
  exists k, future_of f = Some k /\ tget k (held s) = None /\ tget k (held (fst (astep s (AHold f)))) = Some f.
Proof.
  intros X. destruct (fut_gate s f) as [(k & F & G)|[_ E]]; [|rewrite E in X; discriminate X].
  exists k. rewrite held_at. cbn [releases]. rewrite F, G, X. destruct (stage_eqb_spec k k); [|congruence].
  apply andb_prop in G as [G _]. unfold free_iter in G. destruct (tget k (held s)); [discriminate G | auto].
Qed.

Lemma held_step k f s o : tget k (held s) = Some f -> releases k s o = false ->
  tget k (held (fst (astep s o))) = Some f.
Proof.
  intros Hh Rl. rewrite held_at, Rl. destruct o as [ | |d| | | | ]; try exact Hh.
  destruct (future_of d) as [j|]; [|exact Hh]. destruct (stage_eqb_spec k j) as [<-|]; [|exact Hh].
  (* the iterator is not free *)
  unfold gate_fut, free_iter. rewrite Hh. reflexivity.
Qed.

Lemma held_release k f s o : tget k (held s) = Some f -> releases k s o = true ->
  tget k (held (fst (astep s o))) = None.
Proof. intros _ Rl. rewrite held_at, Rl. reflexivity. Qed.

Theorem held_kept_run k f h : forall s, tget k (held s) = Some f -> kept k s h = true ->
  tget k (held (fst (arun s h))) = Some f.
Proof.
  induction h as [|o r IH]; intros s Hh K; [exact Hh|].
  rewrite arun_cons. cbn [kept fst] in *. apply andb_prop in K as [K1 K2].
  apply negb_true_iff in K1. apply IH; [apply held_step; assumption | exact K2].
Qed.

(** while a future is kept its iterator is borrowed: every other call or future on that iterator is rejected *)
Lemma borrowed k f s : tget k (held s) = Some f ->
  (forall d, direct_of d (base s) = Some k -> astep s (ADirect d) = (s, (OBad, []))) /\
  (forall g, future_of g = Some k -> astep s (APoll g) = (s, (OBad, [])) /\ astep s (AHold g) = (s, (OBad, []))).
Proof.
  intros Hh. split.
  - intros d D. cbn [astep]. rewrite D. unfold free_iter. rewrite Hh. reflexivity.
  - intros g F. cbn [astep]. rewrite F. unfold free_iter. rewrite Hh. auto.
Qed.

Lemma pending_push v s h :
  fst (snd (astep s (AHold (Push v)))) = OPending -> kept P (fst (astep s (AHold (Push v)))) h = true ->
  performed s (AHold (Push v)) = None /\
  tget P (held (fst (astep s (AHold (Push v))))) = Some (Push v) /\
  tget P (held (fst (arun (fst (astep s (AHold (Push v)))) h))) = Some (Push v).
Proof.
  intros X K. destruct (hold_pending s (Push v) X) as (k & F & _ & Hh). injection F as <-.
  unfold performed. cbn [attempt]. rewrite X. auto using held_kept_run.
Qed.

(** a push future that was created with value [v] and answered Pending holds [Push v] - the same [v] - after
    every prefix of every continuation in which it neither resolves nor is dropped *)
Theorem held_value_kept v s h1 h2 :
  let s1 := fst (astep s (AHold (Push v))) in
  fst (snd (astep s (AHold (Push v)))) = OPending ->
  kept P s1 (h1 ++ h2) = true ->
  tget P (held s1) = Some (Push v) /\
  tget P (held (fst (arun s1 h1))) = Some (Push v) /\
  tget P (held (fst (arun s (AHold (Push v) :: h1)))) = Some (Push v) /\
  attempt (fst (arun s1 h1)) (ARepoll P) = Some (Push v).
Proof.
  cbv zeta. intros X K. rewrite kept_app in K. apply andb_prop in K as [K1 _].
  destruct (pending_push v s h1 X K1) as (_ & H0 & H1). rewrite arun_cons. auto.
Qed.

(** futures are kept on the iterator they borrow *)
Definition held_wf (s : astate) : Prop := forall k f, tget k (held s) = Some f -> future_of f = Some k.

Lemma held_wf_init m : held_wf (a_init_state m).
Proof. intros k f. destruct k; simpl; discriminate. Qed.

Lemma held_wf_step s o : held_wf s -> held_wf (fst (astep s o)).
Proof.
  intros Wf k f. rewrite held_at. destruct (releases k s o); [discriminate|].
  destruct o as [ | |d| | | | ]; try apply Wf. destruct (future_of d) as [j|] eqn:F; [|apply Wf].
  destruct (stage_eqb_spec k j) as [<-|]; [|apply Wf]. destruct (_ && _); [|apply Wf].
  intros E. injection E as <-. exact F.
Qed.

Lemma held_wf_run h : forall s, held_wf s -> held_wf (fst (arun s h)).
Proof.
  induction h as [|o r IH]; intros s Wf; [exact Wf|].
  rewrite arun_cons. apply IH, held_wf_step, Wf.
Qed.

Lemma kept_no_future_on k f h : forall s, held_wf s -> tget k (held s) = Some f -> kept k s h = true ->
  forall g, In g (erase s h) -> future_of g <> Some k.
Proof.
  induction h as [|o r IH]; intros s Wf Hh K g Hin; [destruct Hin|].
  cbn [kept erase] in *. apply andb_prop in K as [K1 K2]. apply negb_true_iff in K1.
  apply in_app_or in Hin as [Hin|Hin]; [|apply (IH (fst (astep s o))); auto using held_wf_step, held_step].
  unfold performed in Hin. destruct (attempt s o) as [g'|] eqn:At; [|destruct Hin].
  destruct (visible (fst (snd (astep s o)))) eqn:V; [|destruct Hin]. destruct Hin as [<-|[]]. intros F.
  destruct (borrowed k f s Hh) as [_ B]. destruct (B g' F) as [E1 E2].
  destruct o as [d|d|d|k'|k'|n|k']; cbn [attempt] in At; try discriminate At; try injection At as ->.
  - cbn [astep] in V. destruct (direct_of g' (base s)) as [j|] eqn:Dj; [|discriminate V].
    rewrite (direct_not_future _ _ _ Dj) in F. discriminate F.
  - rewrite E1 in V. discriminate V.
  - rewrite E2 in V. discriminate V.
  - (* the kept future itself: it answers, so it is released *)
    assert (k' = k) by (pose proof (Wf k' g' At); congruence). subst k'.
    cbn [releases] in K1. rewrite (visible_not_pending _ V) in K1.
    destruct (stage_eqb_spec k k); [discriminate K1 | congruence].
Qed.

(** a pending push is stored exactly once, by the re-poll that finally answers, with the value it was created with:
    the erased history of "keep [Push v] (Pending) ; anything that does not release it ; re-poll (answers)" is the
    erased middle part - in which the producer performs nothing at all, no other push in particular - followed by
    exactly one [Push v]. *)
Theorem pending_push_stored_once v s mid :
  let s1 := fst (astep s (AHold (Push v))) in
  let s2 := fst (arun s1 mid) in
  held_wf s ->
  fst (snd (astep s (AHold (Push v)))) = OPending ->
  kept P s1 mid = true ->
  visible (fst (snd (astep s2 (ARepoll P)))) = true ->
  erase s (AHold (Push v) :: mid ++ [ARepoll P]) = erase s1 mid ++ [Push v] /\
  (forall g, In g (erase s1 mid) -> future_of g <> Some P) /\
  performed s2 (ARepoll P) = Some (Push v) /\
  tget P (held (fst (astep s2 (ARepoll P)))) = None.
Proof.
  cbv zeta. intros Wf X K V. destruct (pending_push v s mid X K) as (E1 & H1 & H2).
  assert (E2 : performed (fst (arun (fst (astep s (AHold (Push v)))) mid)) (ARepoll P) = Some (Push v)).
  { unfold performed. cbn [attempt]. rewrite H2, V. reflexivity. }
  repeat match goal with |- _ /\ _ => split end.
  - cbn [erase]. rewrite E1, erase_app. cbn [app erase]. rewrite E2. reflexivity.
  - apply (kept_no_future_on P (Push v) mid); auto using held_wf_step.
  - exact E2.
  - apply (held_release P (Push v)); [exact H2|]. cbn [releases stage_eqb]. rewrite (visible_not_pending _ V). reflexivity.
Qed.

(** ... or never: a push future dropped while Pending contributes nothing - the value went back to the caller with
    the Pending answer (no [LTake v] anywhere: the Pending polls have no ledger event, [async_refines]) *)
Theorem dropped_push_not_stored v s mid :
  let s1 := fst (astep s (AHold (Push v))) in
  let s2 := fst (arun s1 mid) in
  held_wf s ->
  fst (snd (astep s (AHold (Push v)))) = OPending ->
  kept P s1 mid = true ->
  erase s (AHold (Push v) :: mid ++ [ADropFut P]) = erase s1 mid /\
  (forall g, In g (erase s1 mid) -> future_of g <> Some P) /\
  astep s2 (ADropFut P) = (set_held P None s2, (OUnit, [])) /\
  tget P (held (fst (astep s2 (ADropFut P)))) = None.
Proof.
  cbv zeta. intros Wf X K. destruct (pending_push v s mid X K) as (E1 & H1 & H2).
  assert (E3 : forall s2, tget P (held s2) = Some (Push v) -> astep s2 (ADropFut P) = (set_held P None s2, (OUnit, [])))
    by (intros s2 H; cbn [astep]; rewrite H; reflexivity).
  repeat match goal with |- _ /\ _ => split end.
  - cbn [erase]. rewrite E1, erase_app. cbn [app erase performed attempt]. apply app_nil_r.
  - apply (kept_no_future_on P (Push v) mid); auto using held_wf_step.
  - apply E3, H2.
  - rewrite (E3 _ H2). reflexivity.
Qed.

(** what the answering re-poll of a kept [Push v] does, in Spec terms: it answers [Ok], takes ownership of exactly
    [v], and [v] is what the producer's position holds afterwards *)
Theorem resolved_push_result v s a :
  Rel (base s) a -> tget P (held s) = Some (Push v) ->
  visible (fst (snd (astep s (ARepoll P)))) = true ->
  let s' := fst (astep s (ARepoll P)) in
  let a' := fst (sstep a (Push v)) in
  Rel (base s') a' /\
  snd (astep s (ARepoll P)) = (OOk, a_ev a (store_ev SAssign (a_cell (tP (lpos a)) a) ++ [LTake v])) /\
  nth (tP (lpos a)) (tape a') 0%N = v /\ tP (lpos a') = tP (lpos a) + 1 /\
  tget P (held s') = None.
Proof.
  cbv zeta. intros R Hh V.
  assert (Pf : performed s (ARepoll P) = Some (Push v)).
  { unfold performed. cbn [attempt]. rewrite Hh, V. reflexivity. }
  destruct (astep_performed s a (ARepoll P) (Push v) R Pf eq_refl) as [R1 E].
  destruct (astep_repoll_shape s (Push v) P Hh) as (Eo & _ & Eh).
  pose proof (poll_out_not_refused P (Push v) s) as NR. rewrite <- Eo, E in NR.
  rewrite E in V |- *.
  assert (Hl : tP (lpos a) < length (tape a)).
  { pose proof (r_tape _ _ R). pose proof (r_oP _ _ R). pose proof (r_pos _ _ R). lia. }
  destruct (a_attached P a) eqn:G; [|cbn [sstep] in V; rewrite G in V; discriminate V].
  assert (S : sstep a (Push v) =
              (fst (sstep a (Push v)), (OOk, a_ev a (store_ev SAssign (a_cell (tP (lpos a)) a) ++ [LTake v])))).
  { destruct (1 <=? a_avail P a) eqn:Av.
    - cbn [sstep]. rewrite G. unfold a_push. rewrite Av. unfold a_rete, a_ev, a_advance. cbn [fst].
      destruct (tget P (sdet (a_set_tape (upd (tget P (lpos a)) v (tape a)) a))); reflexivity.
    - exfalso. cbn [sstep] in NR. rewrite G in NR. unfold a_push in NR. rewrite Av in NR. discriminate NR. }
  destruct (C01_push_position a v _ _ G S Hl) as [T L].
  repeat match goal with |- _ /\ _ => split end; auto.
  - rewrite S at 1. reflexivity.
  - rewrite Eh, <- Eo, E. rewrite S at 1. cbn [fst snd is_pending]. apply tget_tset_same.
Qed.

(** on the Model: if the synchronous operation would succeed on the buffer as it is, then the re-poll of the kept
    future / a fresh poll / a fresh poll-and-keep answers - not Pending - with exactly the synchronous result, moves
    the buffer exactly as the synchronous operation does, and leaves the iterator free.  No relation, no contract. *)
Theorem completes_when_possible k f s :
  refused (fst (snd (step (base s) f))) = false ->
  let sync := step (base s) f in
  (tget k (held s) = Some f ->
     astep s (ARepoll k) = (set_held k None (set_base (fst sync) s), snd sync) /\
     fst (snd (astep s (ARepoll k))) <> OPending /\
     tget k (held (fst (astep s (ARepoll k)))) = None) /\
  (future_of f = Some k -> gate_fut k s = true ->
     astep s (APoll f) = (set_base (fst sync) s, snd sync) /\
     astep s (AHold f) = (set_base (fst sync) s, snd sync) /\
     fst (snd (astep s (AHold f))) <> OPending /\
     tget k (held (fst (astep s (APoll f)))) = None /\
     tget k (held (fst (astep s (AHold f)))) = None).
Proof.
  intros Rf. cbv zeta. pose proof (poll_not_refused k f s Rf) as Ep.
  pose proof (step_not_pending (base s) f) as Np. apply not_pending in Np as Np'.
  destruct (step (base s) f) as [m1 [x e]]. cbn [fst snd] in *.
  split.
  - intros Hh. cbn [astep]. rewrite Hh, Ep, on_pending, Np'. cbn [fst snd held set_held set_base].
    rewrite tget_tset_same. auto.
  - intros F G. rewrite (astep_poll_shape s f k F G), Ep. unfold gate_fut in G. cbn [astep]. rewrite F, G, Ep, on_pending, Np'.
    apply andb_prop in G as [G _]. unfold free_iter in G. cbn [fst snd held set_base].
    destruct (tget k (held s)); [discriminate G | auto].
Qed.

(** on the Spec - "its condition has become true" is a fact about the buffer, not about what the iterator
    remembers: whatever the (possibly stale) remembered availability says, if the TRUE state of the buffer lets the
    operation succeed, then the kept future completes at its next poll, with the Spec's result. *)
Theorem completes_when_condition_true k f s a :
  Rel (base s) a -> held_wf s -> tget k (held s) = Some f ->
  refused (fst (snd (sstep a f))) = false ->
  fst (snd (astep s (ARepoll k))) <> OPending /\
  snd (astep s (ARepoll k)) = snd (sstep a f) /\
  Rel (base (fst (astep s (ARepoll k)))) (fst (sstep a f)) /\
  tget k (held (fst (astep s (ARepoll k)))) = None.
Proof.
  intros R Wf Hh Rs.
  destruct (step_refines _ _ f R (future_ok a f k (Wf k f Hh))) as [E R1]. rewrite <- E in *.
  destruct (completes_when_possible k f s Rs) as [A _]. destruct (A Hh) as (Ea & Np & Hn).
  rewrite Ea in *. auto.
Qed.

(** ... and conversely a kept future whose condition is still false stays Pending and stays kept *)
Theorem pending_while_condition_false k f s a :
  Rel (base s) a -> held_wf s -> tget k (held s) = Some f ->
  refused (fst (snd (sstep a f))) = true ->
  snd (astep s (ARepoll k)) = (OPending, []) /\
  Rel (base (fst (astep s (ARepoll k)))) a /\
  tget k (held (fst (astep s (ARepoll k)))) = Some f.
Proof.
  intros R Wf Hh Rs.
  pose proof (future_ok a f k (Wf k f Hh)) as OK.
  destruct (step_refines _ _ f R OK) as [E _]. rewrite <- E in Rs.
  destruct (poll_pending s a k f R OK Rs) as (m2 & Ep & R2 & _).
  destruct (astep_repoll_shape s f k Hh) as (-> & -> & ->). rewrite Ep. cbn [fst snd is_pending base register set_base].
  auto.
Qed.

(** a two-slot buffer of plain numbers holds one item.  The second push is Pending (buffer full), its value is kept;
    the consumer pops; the re-poll stores the kept value. *)
Definition ex1_cfg := mkConfig [0;0]%N false true false.
Definition ex1_hist : list aop :=
  [APoll (Push 7); AHold (Push 8); ARepoll P; APoll Pop; ARepoll P; APoll Pop; APoll Pop]%N.

Example ex1_run :
  match init ex1_cfg with
  | Some m =>
      let s := a_init_state m in
      map fst (snd (arun s ex1_hist)) = [OOk; OPending; OPending; OVal 7; OOk; OVal 8; OPending]%N /\
      erase s ex1_hist = [Push 7; Pop; Push 8; Pop]%N /\
      obs s ex1_hist = [(OOk, []); (OVal 7, []); (OOk, []); (OVal 8, [])]%N /\
      obs s ex1_hist = snd (run m (erase s ex1_hist)) /\
      slots (base (fst (arun s ex1_hist))) = [7; 8]%N /\
      held (fst (arun s ex1_hist)) = mkTri None None None
  | None => False
  end.
Proof. vm_compute. repeat split; reflexivity. Qed.

(** three slots of owned items (two in flight at most), a task switch and a direct call while the push is kept, a
    second push that is dropped while Pending: it is not in the erased history and its value is never taken. *)
Definition ex2_cfg := mkConfig [1;2;3]%N false true true.
Definition ex2_hist : list aop :=
  [APoll (Push 10); APoll (Push 11); AHold (Push 12); ASetTask 1; ARepoll P; ADirect (Avail P); ADirect (Avail C);
   APoll PopMove; ARepoll P; AHold (Push 13); ADropFut P; APoll PopMove]%N.

Example ex2_run :
  match init ex2_cfg, a_init ex2_cfg with
  | Some m, Some a =>
      let s := a_init_state m in
      map fst (snd (arun s ex2_hist)) =
        [OOk; OOk; OPending; OUnit; OPending; OBad; ONum 2; OVal 10; OOk; OPending; OUnit; OVal 11]%N /\
      erase s ex2_hist = [Push 10; Push 11; Avail C; PopMove; Push 12; PopMove]%N /\
      obs s ex2_hist = [(OOk, [LDrop 1; LTake 10]); (OOk, [LDrop 2; LTake 11]); (ONum 2, []); (OVal 10, [LGive 10]);
                        (OOk, [LDrop 3; LTake 12]); (OVal 11, [LGive 11])]%N /\
      snd (srun a (erase s ex2_hist)) = true /\
      obs s ex2_hist = snd (fst (srun a (erase s ex2_hist))) /\
      ledger (snd (arun s ex2_hist)) = [LDrop 1; LTake 10; LDrop 2; LTake 11; LGive 10; LDrop 3; LTake 12; LGive 11]%N /\
      slots (base (fst (arun s ex2_hist))) = [0; 0; 12]%N /\
      tget P (wk (fst (arun s ex2_hist))) = Some 1 /\ wakes (fst (arun s ex2_hist)) = 0
  | _, _ => False
  end.
Proof. vm_compute. repeat split; reflexivity. Qed.

(** a poll can also answer OBad - the future was created on an iterator that is gone: such a step performs nothing *)
Example ex3_run :
  match init ex1_cfg with
  | Some m =>
      let s := a_init_state m in
      let h := [ADirect (DropIter P); APoll (Push 5); APoll Pop]%N in
      map fst (snd (arun s h)) = [OUnit; OBad; OPending] /\ erase s h = [DropIter P]
  | None => False
  end.
Proof. vm_compute. repeat split; reflexivity. Qed.

Print Assumptions async_refines.
Print Assumptions async_is_sync.
Print Assumptions held_value_kept.
Print Assumptions held_kept_run.
Print Assumptions pending_push_stored_once.
Print Assumptions dropped_push_not_stored.
Print Assumptions resolved_push_result.
Print Assumptions completes_when_possible.
Print Assumptions completes_when_condition_true.
Print Assumptions pending_while_condition_false.
