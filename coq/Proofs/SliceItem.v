(** * C06, second sentence: slice-wise and item-wise operations are interchangeable (on the Spec; the Model refines it) *)
From Coq Require Import List Arith NArith Lia.
Import ListNotations.
Require Import MRB.Base.Ring MRB.Base.ListAux MRB.Model.Types MRB.Spec.Pipe.
Require Import MRB.Proofs.Rel MRB.Proofs.TapeFacts.

Definition push_each (a : pipe) (vs : list N) : pipe := fold_left (fun a v => fst (sstep a (Push v))) vs a.

(** the state after an accepted push of [vs] *)
Definition pushed (a : pipe) (vs : list N) : pipe :=
  a_advance P (length vs) (a_set_tape (write (tape a) (tP (lpos a)) vs) a).

Lemma push_slice_state a vs : a_attached P a = true -> sowned a = false -> length vs <= a_avail P a ->
  fst (sstep a (PushSlice vs)) = pushed a vs.
Proof.
  intros G O L. cbn [sstep]. unfold a_plain. rewrite G, O. simpl. unfold a_push_slice.
  bt (length vs <=? a_avail P a). reflexivity.
Qed.

Lemma push_state a v : a_attached P a = true -> 1 <= a_avail P a -> fst (sstep a (Push v)) = pushed a [v].
Proof. intros G L. cbn [sstep]. rewrite G. unfold a_push. bt (1 <=? a_avail P a). reflexivity. Qed.

Lemma pushed_nil a : tP (sdet a) = false -> tP (lpos a) = tP (ppos a) -> pushed a [] = a.
Proof.
  intros D Q. unfold pushed, a_advance. simpl. rewrite D.
  destruct a as [? ? [] [] ? ? ? ? ? ? ? ?]. simpl in *. rewrite Nat.add_0_r. subst. reflexivity.
Qed.

Lemma pushed_cons a v r : tP (sdet a) = false -> pushed (pushed a [v]) r = pushed a (v :: r).
Proof.
  intros D. unfold pushed, a_advance. simpl. rewrite D. simpl. rewrite D. simpl.
  replace (tP (lpos a) + 1) with (S (tP (lpos a))) by lia.
  replace (S (tP (lpos a)) + length r) with (tP (lpos a) + S (length r)) by lia. reflexivity.
Qed.

Lemma pushed_ready a v n : a_attached P a = true -> sowned a = false -> S n <= a_avail P a ->
  a_attached P (pushed a [v]) = true /\ sowned (pushed a [v]) = false /\ n <= a_avail P (pushed a [v]) /\
  tP (lpos (pushed a [v])) = tP (ppos (pushed a [v])).
Proof.
  intros G O L. pose proof (attached_det _ _ G) as D. simpl in D.
  unfold pushed, a_advance. simpl. rewrite D. repeat split; auto.
  unfold a_avail, a_succ in *. simpl in *. lia.
Qed.

(** pushing a slice = pushing its items one by one: the same Spec state *)
Theorem push_slice_eq_items vs : forall a, a_attached P a = true -> sowned a = false -> length vs <= a_avail P a ->
  tP (lpos a) = tP (ppos a) ->
  fst (sstep a (PushSlice vs)) = push_each a vs.
Proof.
  induction vs as [|v r IH]; intros a G O L Q; rewrite push_slice_state by auto;
    pose proof (attached_det _ _ G) as D; simpl in D.
  - apply pushed_nil; auto.
  - cbn [push_each fold_left]. fold (push_each (fst (sstep a (Push v))) r). cbn [length] in L.
    rewrite push_state by (auto; lia).
    destruct (pushed_ready a v (length r) G O L) as (G1 & O1 & L1 & Q1).
    rewrite <- IH, push_slice_state by auto. symmetry. apply pushed_cons, D.
Qed.

(** the consumer: copying a slice of n = copying n items one by one (state and, concatenated, the values) *)
Fixpoint copy_each (a : pipe) (n : nat) : pipe * list N :=
  match n with
  | 0 => (a, [])
  | S k => let '(a1, (o, _)) := sstep a CopyItem in
           let '(a2, vs) := copy_each a1 k in
           (a2, (match o with ODst l => l | _ => [] end) ++ vs)
  end.

Lemma extend_extend len a b t : extend len a (extend len b t) = extend len (b + a) t.
Proof. revert t; induction b; intros t; simpl; auto. Qed.

Lemma advance_C_attached a n : tC (sdet a) = false -> length (tape a) = tC (ppos a) + slen a -> tC (lpos a) = tC (ppos a) ->
  a_advance C n a = mkS (slen a) (extend (slen a) n (tape a)) (tset C (tC (lpos a) + n) (ppos a)) (tset C (tC (lpos a) + n) (lpos a))
                        (sdet a) (shere a) (sflag a) (shasW a) (sheap a) (sowned a) (sfreed a) (snid a).
Proof.
  intros D T E. unfold a_advance, a_publish. simpl. rewrite D. simpl. rewrite T, E. f_equal. f_equal. lia.
Qed.

Lemma copy_slice_state a n : a_attached C a = true -> sowned a = false -> n <= a_avail C a ->
  sstep a (CopySlice n) = (a_advance C n a, (ODst (sub (tape a) (tC (lpos a)) n), [])).
Proof.
  intros G O L. cbn [sstep]. unfold a_plain. rewrite G, O. simpl. unfold a_extract_slice.
  bt (n <=? a_avail C a). apply a_rete_nil.
Qed.

Lemma copy_item_state a : a_attached C a = true -> sowned a = false -> 1 <= a_avail C a ->
  sstep a CopyItem = (a_advance C 1 a, (ODst [a_cell (tC (lpos a)) a], [])).
Proof.
  intros G O L. cbn [sstep]. unfold a_plain. rewrite G, O. simpl. unfold a_extract_item.
  bt (1 <=? a_avail C a). apply a_rete_nil.
Qed.

Theorem copy_slice_eq_items n : forall a, a_attached C a = true -> sowned a = false -> n <= a_avail C a ->
  length (tape a) = tC (ppos a) + slen a -> tC (lpos a) = tC (ppos a) -> tC (lpos a) + n <= length (tape a) ->
  fst (sstep a (CopySlice n)) = fst (copy_each a n) /\
  fst (snd (sstep a (CopySlice n))) = ODst (snd (copy_each a n)).
Proof.
  induction n as [|k IH]; intros a G O L T E B; rewrite copy_slice_state by auto;
    pose proof (attached_det _ _ G) as D; simpl in D; cbn [copy_each fst snd].
  - split; [|reflexivity]. rewrite advance_C_attached by auto.
    destruct a as [? ? [] [] ? ? ? ? ? ? ? ?]. simpl in *. rewrite Nat.add_0_r. subst. reflexivity.
  - rewrite copy_item_state by (auto; lia). set (a1 := a_advance C 1 a).
    assert (A1 : a1 = _) by (apply advance_C_attached; auto).
    assert (G1 : a_attached C a1 = true) by (rewrite A1; exact G).
    assert (O1 : sowned a1 = false) by (rewrite A1; exact O).
    assert (L1 : k <= a_avail C a1).
    { rewrite A1. unfold a_avail, a_succ in *. simpl in *. destruct (shasW a); lia. }
    assert (T1 : length (tape a1) = tC (ppos a1) + slen a1) by (rewrite A1; cbn -[extend]; rewrite extend_length; lia).
    assert (E1 : tC (lpos a1) = tC (ppos a1)) by (rewrite A1; reflexivity).
    assert (B1 : tC (lpos a1) + k <= length (tape a1)) by (rewrite A1; cbn -[extend]; rewrite extend_length; lia).
    destruct (IH a1 G1 O1 L1 T1 E1 B1) as [S1 S2]. rewrite copy_slice_state in S1, S2 by auto.
    destruct (copy_each a1 k) as [a2 vs]. cbn [fst snd] in *. inversion S2 as [S3]. split.
    + rewrite <- S1, (advance_C_attached a1 k) by (auto; rewrite A1; exact D).
      rewrite advance_C_attached, A1 by auto. cbn -[extend]. rewrite extend_extend.
      f_equal; f_equal; lia.
    + f_equal. rewrite A1. cbn -[extend sub]. rewrite sub_extend by lia.
      unfold a_cell. rewrite (sub_cons_nth 0%N (tape a) (tC (lpos a)) k) by lia.
      replace (tC (lpos a) + 1) with (S (tC (lpos a))) by lia. reflexivity.
Qed.
