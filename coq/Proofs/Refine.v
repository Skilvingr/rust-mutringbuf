(** * Model refines Spec: every operation of a contract-respecting history yields the Spec's result
      and re-establishes the relation.  For all lengths, all states, all histories. *)
From Coq Require Import List Arith NArith Bool Lia.
Import ListNotations.
Require Import MRB.Base.Ring MRB.Base.ListAux MRB.Model.Types MRB.Model.Seq MRB.Spec.Pipe.
Require Import MRB.Proofs.Rel MRB.Proofs.TapeFacts.

Local Ltac inv H := inversion H; subst; clear H.

Definition refines (r : res) (r' : ares) : Prop := snd r = snd r' /\ Rel (fst r) (fst r').

Lemma refines_bad m a : Rel m a -> refines (bad m) (a_bad a).
Proof. intros; split; simpl; auto. Qed.

Lemma refines_ret m' a' o : Rel m' a' -> refines (ret m' o) (a_ret a' o).
Proof. intros; split; simpl; auto. Qed.

Lemma refines_rete m' a' o l : Rel m' a' -> refines (rete m' o l) (a_rete a' o l).
Proof. intros R; split; simpl; auto. unfold ev, a_ev. rewrite (r_owned _ _ R). reflexivity. Qed.

Lemma rel_set_ca m a k c : Rel m a -> a_usable k a = true -> c <= a_avail k a -> Rel (set_ca k c m) a.
Proof.
  intros R U Hc. rewrite avail_limit in Hc.
  apply (rel_frame_own k m a); auto; [intros j N; kept N|].
  apply SR_set_ca; auto using rel_stage, usable_here.
Qed.

Lemma rel_refresh m a k : Rel m a -> a_usable k a = true ->
  refresh k m = (set_ca k (a_avail k a) m, a_avail k a) /\ Rel (set_ca k (a_avail k a) m) a.
Proof.
  intros R U. unfold refresh. rewrite (fresh_eq m a k R U). split; auto.
  apply rel_set_ca; auto.
Qed.

Lemma rel_check m a k n g m' : Rel m a -> a_usable k a = true -> check k n m = (g, m') ->
  g = (n <=? a_avail k a) /\ Rel m' a.
Proof.
  intros R U. unfold check.
  destruct (r_it _ _ R k (usable_here _ _ U)) as (_ & _ & Hca).
  destruct (n <=? ca (it_of k m)) eqn:E.
  - intros H; inv H. apply Nat.leb_le in E. split; auto.
    symmetry. apply Nat.leb_le. lia.
  - destruct (rel_refresh m a k R U) as [-> R']. intros H; inv H. auto.
Qed.

(** applied to [push], [grant], ... against [a_push], [a_grant], ...: [work m1] is the Model function's branch after
    a successful check, on the checked state [m1]; [awork] the Spec function's then-branch *)
Lemma check_refines k n m a work awork no :
  Rel m a -> a_usable k a = true ->
  (forall m1, Rel m1 a -> n <= a_avail k a -> refines (work m1) awork) ->
  refines (guarded k n work no m) (a_guarded k n awork no a).
Proof.
  intros R U H. unfold guarded, a_guarded. destruct (check k n m) as [g m1] eqn:Ec.
  destruct (rel_check _ _ _ _ _ _ R U Ec) as [-> R1].
  destruct (n <=? a_avail k a) eqn:E; [apply H; auto; apply Nat.leb_le, E | apply refines_ret, R1].
Qed.

Lemma guarded_refusal k n m a work awork no : Rel m a -> a_usable k a = true -> a_avail k a < n ->
  guarded k n work no m = ret (set_ca k (a_avail k a) m) no /\ a_guarded k n awork no a = a_ret a no.
Proof.
  intros R U L. unfold guarded, a_guarded, check.
  destruct (r_it _ _ R k (usable_here _ _ U)) as (_ & _ & Hca).
  bf (n <=? ca (it_of k m)). destruct (rel_refresh m a k R U) as [-> _]. bf (n <=? a_avail k a). auto.
Qed.

Lemma slot_eq m a p : Rel m a -> tC (ppos a) <= p < tC (ppos a) + slen a ->
  slot m (p mod slen a) = a_cell p a.
Proof. intros R H. unfold slot, a_cell. apply (r_cont _ _ R); auto. Qed.

Lemma rel_contents m a sl t : Rel m a -> length sl = slen a -> Cont sl (a_set_tape t a) ->
  Rel (set_slots sl m) (a_set_tape t a).
Proof.
  intros R Hs Ct. apply rel_intro; [repeat split; simpl; auto; apply R | | exact Ct].
  intros k. exact (rel_stage m a k R).
Qed.

Lemma sub_ring m a p n : Rel m a -> tC (ppos a) <= p -> p + n <= tC (ppos a) + slen a ->
  p mod slen a + n <= slen a -> sub (slots m) (p mod slen a) n = sub (tape a) p n.
Proof.
  intros R Hlo Hhi Hw. pose proof (r_pos _ _ R) as Hl.
  pose proof (r_slots _ _ R) as Hs. pose proof (r_tape _ _ R) as Ht.
  apply (nth_ext_d 0%N); rewrite sub_length by lia; [rewrite sub_length; lia|].
  intros j Hj. rewrite !(nth_sub 0%N) by auto. rewrite <- (r_cont _ _ R) by lia.
  rewrite mod_plus_small; auto; lia.
Qed.

(** the two raw slices of the ring = the contiguous window of the tape, cut at the physical end *)
Lemma rd_eq m a p n : Rel m a -> tC (ppos a) <= p -> p + n <= tC (ppos a) + slen a ->
  rd m (p mod slen a) n =
  (firstn (fst (chunk (slen a) (p mod slen a) n)) (sub (tape a) p n),
   skipn (fst (chunk (slen a) (p mod slen a) n)) (sub (tape a) p n)).
Proof.
  intros R Hlo Hhi. pose proof (r_pos _ _ R) as Hl.
  pose proof (Nat.mod_upper_bound p (slen a) ltac:(lia)) as Hi.
  unfold rd. rewrite (r_len _ _ R). unfold chunk.
  destruct (slen a <=? p mod slen a + n) eqn:E; [apply Nat.leb_le in E | apply Nat.leb_gt in E]; simpl fst.
  - (* the tail slice starts at slot 0, which is position [p + (len - i)] *)
    rewrite firstn_skipn_sub, skipn_sub by lia.
    replace (p mod slen a + n - slen a) with (n - (slen a - p mod slen a)) by lia.
    rewrite <- (sub_ring m a p), <- (sub_ring m a (p + (slen a - p mod slen a))), mod_to_end
      by (auto; rewrite ?mod_to_end; lia).
    reflexivity.
  - rewrite firstn_skipn_sub, skipn_sub, Nat.sub_diag by lia.
    rewrite <- (sub_ring m a p) by (auto; lia). reflexivity.
Qed.

Lemma cont_run sl a p ws : 0 < slen a -> length sl = slen a -> Cont sl a ->
  tC (ppos a) <= p -> p + length ws <= tC (ppos a) + slen a -> p mod slen a + length ws <= slen a ->
  Cont (write sl (p mod slen a) ws) (a_set_tape (write (tape a) p ws) a).
Proof.
  intros Hl Hs [Ht Hc] Hlo Hhi Hw. split; simpl; [rewrite write_length; exact Ht|]. intros q Hq.
  rewrite !(nth_write 0%N) by lia.
  destruct ((p <=? q) && (q <? p + length ws)) eqn:E.
  - apply andb_prop in E as [E1 E2]. apply Nat.leb_le in E1. apply Nat.ltb_lt in E2.
    assert (Eq : q mod slen a = p mod slen a + (q - p))
      by (rewrite <- mod_plus_small by lia; f_equal; lia).
    rewrite Eq. bt (p mod slen a <=? p mod slen a + (q - p)). bt (p mod slen a + (q - p) <? p mod slen a + length ws).
    simpl. f_equal. lia.
  - destruct ((p mod slen a <=? q mod slen a) && _) eqn:F; [exfalso | apply Hc, Hq]. apply andb_prop in F as [F1 F2].
    apply Nat.leb_le in F1. apply Nat.ltb_lt in F2.
    (* a slot of the run belongs to one position of the window only *)
    assert (q = p + (q mod slen a - p mod slen a))
      by (apply (congr_eq (slen a)); auto; try lia; rewrite mod_plus_small by lia; lia).
    apply andb_false_iff in E as [E|E]; [apply Nat.leb_gt in E | apply Nat.ltb_ge in E]; lia.
Qed.

Lemma rel_upd m a p v : Rel m a -> tC (ppos a) <= p < tC (ppos a) + slen a ->
  Rel (set_slots (upd (p mod slen a) v (slots m)) m) (a_set_tape (upd p v (tape a)) a).
Proof.
  intros R Hp. pose proof (r_pos _ _ R) as Hl. pose proof (r_slots _ _ R) as Hs.
  pose proof (Nat.mod_upper_bound p (slen a)).
  apply rel_contents; auto; [rewrite upd_length; exact Hs|].
  apply (cont_run (slots m) a p [v]); auto; try exact (rel_cont m a R); simpl; lia.
Qed.

Lemma rel_wr m a p vs : Rel m a -> tC (ppos a) <= p -> p + length vs <= tC (ppos a) + slen a ->
  Rel (wr m (p mod slen a) vs) (a_set_tape (write (tape a) p vs) a).
Proof.
  intros R Hlo Hhi. pose proof (r_pos _ _ R) as Hl. pose proof (r_slots _ _ R) as Hs.
  pose proof (Nat.mod_upper_bound p (slen a) ltac:(lia)) as Hi.
  unfold wr. rewrite (r_len _ _ R).
  destruct (chunk_bounds (slen a) (p mod slen a) (length vs) Hi ltac:(lia)) as [B _].
  pose proof (chunk_sum (slen a) (p mod slen a) (length vs) Hi) as Sm.
  destruct (chunk (slen a) (p mod slen a) (length vs)) as [h t] eqn:Ec. simpl in B, Sm.
  assert (Lh : length (firstn h vs) = h) by (rewrite firstn_length; lia).
  rewrite <- (firstn_skipn h vs) at 3. rewrite write_app, Lh.
  apply rel_contents; auto; [rewrite !write_length; exact Hs|].
  (* the tail slice is empty, or it starts at the position whose slot is 0 *)
  assert (Z : t = 0 \/ (p + h) mod slen a = 0).
  { unfold chunk in Ec. destruct (slen a <=? p mod slen a + length vs); inversion Ec; auto using mod_to_end. }
  pose proof (cont_run (slots m) a p (firstn h vs) Hl Hs (rel_cont m a R)) as C1. rewrite Lh in C1.
  specialize (C1 Hlo ltac:(lia) B).
  destruct Z as [->|Z].
  - rewrite skipn_all2 by lia. exact C1.
  - pose proof (cont_run _ (a_set_tape _ a) (p + h) (skipn h vs) Hl ltac:(rewrite write_length; exact Hs) C1) as C2.
    cbn [slen a_set_tape] in C2. rewrite Z in C2. apply C2; simpl; rewrite ?skipn_length; lia.
Qed.

Lemma wr_cont m a p vs : Rel m a -> tC (ppos a) <= p -> p + length vs <= tC (ppos a) + slen a ->
  forall q, tC (ppos a) <= q < tC (ppos a) + slen a ->
    nth (q mod slen a) (slots (wr m (p mod slen a) vs)) 0%N = nth q (write (tape a) p vs) 0%N.
Proof. intros R Hlo Hhi. exact (r_cont _ _ (rel_wr m a p vs R Hlo Hhi)). Qed.

(** the consumer's publication moves the window: a new position starts with what its slot holds *)
Lemma cont_publish sl a k p : 0 < slen a -> Cont sl a ->
  (k = C -> tC (ppos a) <= p <= tC (ppos a) + slen a) -> Cont sl (a_publish k p a).
Proof.
  intros Hl Ct Hp. destruct k; [exact Ct | exact Ct |]. destruct Ct as [Ht Hc], (Hp eq_refl). split; simpl.
  - rewrite extend_length. lia.
  - intros q Hq. destruct (Nat.lt_ge_cases q (length (tape a))) as [Hlt|Hge].
    + rewrite extend_old by auto. apply Hc. lia.
    + rewrite extend_new by lia. rewrite <- Hc by lia.
      f_equal. replace q with (q - slen a + slen a) at 1 by lia. apply mod_add_len. lia.
Qed.

Lemma rel_move_publish m a k p' c :
  Rel m a -> a_usable k a = true ->
  tget k (lpos a) <= p' -> p' <= a_limit k a ->
  c <= a_limit k a - p' ->
  Rel (set_pub k (p' mod slen a) (set_ix_ca k (p' mod slen a) c m))
      (a_publish k p' (a_set_lpos k p' a)).
Proof.
  intros R U Hlo Hhi Hc. destruct (stage_limit m a k R) as [_ O].
  apply (rel_frame k m a); auto; [exact (rel_glob m a R) | | |].
  - apply cont_publish; [apply R | exact (rel_cont m a R) |].
    intros ->. destruct (stage_window m a C R eq_refl). simpl in *. lia.
  - intros j N. split; [kept N | apply (limit_publish j k p' (a_set_lpos k p' a)); simpl; lia].
  - apply SR_move_publish; auto using rel_stage, usable_here.
Qed.

(** [sync_index]: publish the local position *)
Lemma rel_publish m a k :
  Rel m a -> a_usable k a = true ->
  Rel (set_pub k (ix (it_of k m)) m) (a_publish k (tget k (lpos a)) a).
Proof.
  intros R U. destruct (stage_limit m a k R) as [_ O].
  apply (rel_frame k m a); auto; [exact (rel_glob m a R) | | |].
  - apply cont_publish; [apply R | exact (rel_cont m a R) |].
    intros ->. destruct (window_bounds m a C R U). simpl in *. lia.
  - intros j N. split; [kept N | apply limit_publish, O].
  - apply SR_publish; auto using rel_stage, usable_here.
Qed.

Lemma rel_local_move m a k p' c :
  Rel m a -> a_usable k a = true -> tget k (sdet a) = true ->
  tget k (ppos a) <= p' -> p' <= a_limit k a -> c <= a_limit k a - p' ->
  Rel (set_ix_ca k (p' mod slen a) c m) (a_set_lpos k p' a).
Proof.
  intros R U D Hlo Hhi Hc. apply (rel_frame_own k m a); auto; [intros j N; kept N|].
  apply SR_local_move; auto using rel_stage, usable_here.
Qed.

Lemma rel_set_det m a k b :
  Rel m a -> a_usable k a = true -> (b = false -> tget k (lpos a) = tget k (ppos a)) ->
  Rel (set_det k b m) (a_set_det k b a).
Proof.
  intros R U Hb. apply (rel_frame_own k m a); auto; [intros j N; kept N|].
  apply SR_set_det; auto using rel_stage, usable_here.
Qed.

Lemma rel_set_nid m a n : Rel m a -> Rel (set_nid n m) (a_set_nid n a).
Proof. intros R. destruct R. constructor; simpl; auto. Qed.

Lemma grant_refines m a k n : Rel m a -> a_usable k a = true -> refines (grant k n m) (a_grant k n a).
Proof.
  intros R U. apply check_refines; auto. intros m1 R1 E.
  pose proof (window_bounds m1 a k R1 U) as [Wlo Whi].
  rewrite (ix_eq m1 a k R1 U), (rd_eq m1 a (tget k (lpos a)) n R1) by lia.
  unfold a_window. destruct (chunk (slen a) (tget k (lpos a) mod slen a) n) as [h t].
  apply refines_ret, R1.
Qed.

Lemma grant_one_refines m a k : Rel m a -> a_usable k a = true -> refines (grant_one k m) (a_grant_one k a).
Proof.
  intros R U. apply check_refines; auto. intros m1 R1 E.
  pose proof (window_bounds m1 a k R1 U) as [Wlo Whi].
  rewrite (ix_eq m1 a k R1 U), (slot_eq m1 a) by (auto; lia).
  apply refines_ret, R1.
Qed.

Lemma rel_advance m a k n : Rel m a -> a_usable k a = true -> n <= a_avail k a ->
  Rel (advance k n m) (a_advance k n a).
Proof.
  intros R U Hn.
  destruct (r_it _ _ R k (usable_here _ _ U)) as (Hd & Hix & Hca).
  destruct (window_bounds m a k R U) as [Wlo Whi]. pose proof (r_pos _ _ R) as Hl.
  destruct (stage_limit m a k R) as [L O].
  unfold advance, a_advance. rewrite Hd, Hix, (r_len _ _ R), wadd_mod by lia.
  destruct (tget k (sdet a)) eqn:D; [apply rel_local_move | apply rel_move_publish]; auto; lia.
Qed.

Lemma push_refines m a md v : Rel m a -> a_usable P a = true -> refines (push md v m) (a_push md v a).
Proof.
  intros R U. apply check_refines; auto. intros m1 R1 E.
  pose proof (window_bounds m1 a P R1 U) as [Wlo Whi].
  rewrite (ix_eq m1 a P R1 U), (slot_eq m1 a) by (auto; lia).
  apply refines_rete, rel_advance; [apply rel_upd; auto; lia | exact U | exact E].
Qed.

Lemma pop_refines m a mv : Rel m a -> a_usable C a = true -> refines (pop mv m) (a_pop mv a).
Proof.
  intros R U. apply check_refines; auto. intros m1 R1 E.
  pose proof (window_bounds m1 a C R1 U) as [Wlo Whi].
  rewrite (ix_eq m1 a C R1 U), (slot_eq m1 a) by (auto; lia).
  apply refines_rete. destruct mv; apply rel_advance; auto. apply rel_upd; auto; lia.
Qed.

Lemma set_nid_same m : set_nid (nid m) m = m.
Proof. destruct m; reflexivity. Qed.

Lemma clones_refines m a (cl : bool) vs : Rel m a ->
  exists news n,
    (if cl then clones m vs else (vs, m)) = (news, set_nid n m) /\
    (if cl then a_clones a vs else (vs, a)) = (news, a_set_nid n a) /\ length news = length vs.
Proof.
  intros R. unfold clones, a_clones. rewrite (r_owned _ _ R), (r_nid _ _ R).
  destruct cl; [destruct (sowned a)|].
  1: do 2 eexists; repeat split; apply ids_length.
  all: exists vs, (snid a); rewrite <- (r_nid _ _ R) at 1; rewrite set_nid_same, a_set_nid_same; auto.
Qed.

Lemma push_slice_refines m a md cl vs : Rel m a -> a_usable P a = true ->
  refines (push_slice md cl vs m) (a_push_slice md cl vs a).
Proof.
  intros R U. apply check_refines; auto. intros m1 R1 E.
  pose proof (window_bounds m1 a P R1 U) as [Wlo Whi].
  rewrite (ix_eq m1 a P R1 U), (rd_eq m1 a (tget P (lpos a)) (length vs) R1), firstn_skipn by lia.
  destruct (clones_refines m1 a cl vs R1) as (news & x & -> & -> & L).
  apply refines_rete, rel_advance; [| exact U | exact E].
  apply (rel_wr (set_nid x m1) (a_set_nid x a)); [apply rel_set_nid, R1 | exact Wlo | rewrite L; cbn [ppos slen a_set_nid]; lia].
Qed.

Lemma extract_item_refines m a cl : Rel m a -> a_usable C a = true ->
  refines (extract_item cl m) (a_extract_item cl a).
Proof.
  intros R U. apply check_refines; auto. intros m1 R1 E. cbv zeta.
  pose proof (window_bounds m1 a C R1 U) as [Wlo Whi].
  rewrite (ix_eq m1 a C R1 U), (slot_eq m1 a) by (auto; lia).
  destruct (clones_refines m1 a cl [a_cell (tget C (lpos a)) a] R1) as (news & x & -> & -> & L).
  apply refines_rete, rel_advance; [apply rel_set_nid, R1 | exact U | exact E].
Qed.

Lemma extract_slice_refines m a cl n : Rel m a -> a_usable C a = true ->
  refines (extract_slice cl n m) (a_extract_slice cl n a).
Proof.
  intros R U. apply check_refines; auto. intros m1 R1 E. cbv zeta.
  pose proof (window_bounds m1 a C R1 U) as [Wlo Whi].
  rewrite (ix_eq m1 a C R1 U), (rd_eq m1 a (tget C (lpos a)) n R1), firstn_skipn by lia.
  destruct (clones_refines m1 a cl (sub (tape a) (tget C (lpos a)) n) R1) as (news & x & -> & -> & L).
  apply refines_rete, rel_advance; [apply rel_set_nid, R1 | exact U | exact E].
Qed.

Lemma granted_slot m a k off : Rel m a -> a_usable k a = true -> off < a_avail k a ->
  wadd (mlen m) (ix (it_of k m)) off = (tget k (lpos a) + off) mod slen a /\
  tC (ppos a) <= tget k (lpos a) + off < tC (ppos a) + slen a.
Proof.
  intros R U H. pose proof (window_bounds m a k R U) as [Wlo Whi]. pose proof (r_pos _ _ R) as Hl.
  rewrite (ix_eq m a k R U), (r_len _ _ R), wadd_mod by lia. split; [reflexivity | lia].
Qed.

Lemma poke_refines m a md k off v : Rel m a -> a_usable k a = true -> off < a_avail k a ->
  refines (poke md k off v m) (a_poke md k off v a).
Proof.
  intros R U H. unfold poke, a_poke. destruct (granted_slot m a k off R U H) as [-> W].
  rewrite (slot_eq m a) by auto. apply refines_rete, rel_upd; auto.
Qed.

Lemma edit_refines m a k off d : Rel m a -> a_usable k a = true -> off < a_avail k a ->
  refines (edit k off d m) (a_edit k off d a).
Proof.
  intros R U H. unfold edit, a_edit. destruct (granted_slot m a k off R U H) as [-> W].
  rewrite (slot_eq m a) by auto. apply refines_ret, rel_upd; auto.
Qed.

Lemma slots_ring m a : Rel m a -> slots m = a_ring a.
Proof.
  intros R. pose proof (r_pos _ _ R) as Hl. pose proof (r_slots _ _ R) as Hs. pose proof (r_cont _ _ R) as Hc.
  unfold a_ring. cbv zeta.
  set (f := fun j => nth (tC (ppos a) + dist (slen a) (tC (ppos a) mod slen a) j) (tape a) 0%N).
  apply nth_ext with (d := 0%N) (d' := f 0).
  - rewrite map_length, seq_length. auto.
  - intros j Hj. rewrite Hs in Hj.
    rewrite (map_nth f (seq 0 (slen a)) 0 j).
    rewrite seq_nth by auto. simpl. unfold f.
    pose proof (Nat.mod_upper_bound (tC (ppos a)) (slen a) ltac:(lia)) as Hb.
    pose proof (dist_lt (slen a) (tC (ppos a) mod slen a) j Hb Hj).
    rewrite <- Hc by lia. f_equal. symmetry. apply locate_mod; auto.
Qed.

Lemma drop_iter_refines m a k : Rel m a -> refines (drop_iter k m) (a_drop_iter k a).
Proof.
  intros R. split; [|apply (rel_frame_own k m a); auto; [| intros j N; kept N | apply SR_drop, rel_stage, R]].
  - unfold drop_iter, a_drop_iter, rete, a_rete, ev, a_ev. simpl.
    rewrite (r_flag _ _ R), (r_heap _ _ R), (r_owned _ _ R), (slots_ring m a R). reflexivity.
  - unfold Glob. simpl. rewrite (r_flag _ _ R), (r_heap _ _ R), (r_freed _ _ R). intros G. decompose [and] G. repeat split; auto.
Qed.

Lemma idle_eq m a : Rel m a ->
  negb (heap m) && negb (freed m) && no_iters m = negb (sheap a) && negb (sfreed a) && a_no_iters a.
Proof.
  intros R. unfold no_iters, a_no_iters. rewrite (r_heap _ _ R), (r_freed _ _ R).
  pose proof (r_here _ _ R P) as H1. pose proof (r_here _ _ R W) as H2. pose proof (r_here _ _ R C) as H3.
  unfold it_of in *. simpl in *. rewrite H1, H2, H3. reflexivity.
Qed.

Lemma rel_split m a w : Rel m a -> Rel (do_split w m) (a_split w a).
Proof.
  intros R. pose proof (r_pos _ _ R) as Hl.
  unfold do_split, a_split. rewrite <- (slots_ring m a R), (r_flag _ _ R).
  apply rel_intro; [repeat split; simpl; auto; apply R | | split; [exact (r_slots _ _ R)|]].
  - intros k. unfold SR. destruct k, w; simpl; apply sr_init; auto.
  - simpl. intros p Hp. rewrite Nat.mod_small by lia. reflexivity.
Qed.

(** [reset_index] of an attached worker or consumer: move to the limit and publish *)
Lemma rel_reset m a k : Rel m a -> a_usable k a = true -> k <> P ->
  Rel (set_pub k (succ_idx k m) (set_ix_ca k (succ_idx k m) 0 m))
      (a_publish k (a_succ k a) (a_set_lpos k (a_succ k a) a)).
Proof.
  intros R U NP. destruct (stage_limit m a k R) as [_ O].
  rewrite (succ_eq m a k R), (succ_limit k a NP). apply rel_move_publish; auto; lia.
Qed.

Lemma rel_locate m a k i : Rel m a -> a_detached k a = true -> i < slen a ->
  a_locate k i a <= a_limit k a -> Rel (set_ix_ca k i 0 m) (a_set_lpos k (a_locate k i a) a).
Proof.
  intros R G Hi Hhi.
  replace i with (a_locate k i a mod slen a) at 1 by (apply locate_mod; auto; apply R).
  apply rel_local_move; auto using detached_usable, detached_det; unfold a_locate; lia.
Qed.

Lemma grant_fits m a k n : Rel m a -> a_usable k a = true -> n <= a_avail k a ->
  refines (grant k n m) (a_ret a (a_window k n a)).
Proof.
  intros R U Hn. pose proof (grant_refines _ _ k n R U) as H. unfold a_grant in H.
  replace (n <=? a_avail k a) with true in H by (symmetry; apply Nat.leb_le, Hn). exact H.
Qed.

Theorem step_refines m a o :
  Rel m a -> ok_op a o = true -> refines (step m o) (sstep a o).
Proof.
  intros R OK.
  destruct o; cbn [step sstep ok_op] in OK |- *; rewrite ?(usable_eq _ _ _ R), ?(attached_eq _ _ _ R), ?(detached_eq _ _ _ R), ?(plain_eq _ _ R);
    try (match goal with |- context[if ?g then _ else _] => destruct g eqn:G end;
         [| try (destruct k); apply refines_bad; exact R]);
    try match type of G with (_ && a_plain _) = true => apply andb_prop in G as [G _] end;
    (* the operations that are one call of a function of the Model *)
    try solve [auto using grant_one_refines, grant_refines, push_refines, push_slice_refines, pop_refines,
                 extract_item_refines, extract_slice_refines, drop_iter_refines, attached_usable].
  - (* Avail *)
    destruct (rel_refresh m a k R G) as [-> R1]. apply refines_ret; auto.
  - (* Advance *)
    apply Nat.leb_le in OK. apply refines_ret. apply rel_advance; auto.
  - (* GetAvail *)
    destruct (rel_refresh m a k R G) as [-> R1].
    destruct (a_avail k a) eqn:E; [apply refines_ret; auto|]. rewrite <- E in *. apply grant_fits; auto.
  - (* GetMult *)
    destruct (rel_refresh m a k R G) as [-> R1].
    destruct r; [apply refines_ret; auto|].
    destruct (a_avail k a - a_avail k a mod S r) eqn:E; [apply refines_ret; auto|].
    rewrite <- E. apply grant_fits; auto. lia.
  - (* Poke *) apply Nat.ltb_lt in OK. apply poke_refines; auto.
  - (* PokeInit *) apply Nat.ltb_lt in OK. apply poke_refines; auto.
  - (* Edit *) apply Nat.ltb_lt in OK. apply edit_refines; auto.
  - (* PeekAvail *)
    pose proof (attached_usable _ _ G) as U.
    destruct (rel_refresh m a C R U) as [-> R1]. apply grant_fits; auto.
  - (* Reset *)
    destruct k; [apply refines_bad; auto| |];
      apply refines_ret, rel_reset; auto using attached_usable; discriminate.
  - (* Detach *)
    apply refines_ret. apply rel_set_det; auto. apply attached_usable; auto. discriminate.
  - (* Attach *)
    pose proof (detached_usable _ _ G) as U.
    apply refines_ret, (rel_set_det _ _ k false (rel_publish m a k R U)).
    + unfold a_usable, a_publish in *. destruct k; simpl in *; exact U.
    + intros _. unfold a_publish. destruct k; reflexivity.
  - (* Sync *)
    apply refines_ret. apply rel_publish; auto. apply detached_usable; auto.
  - (* SetIndex *)
    apply andb_prop in OK as [O1 O2]. apply Nat.ltb_lt in O1. apply Nat.leb_le in O2.
    apply refines_ret, rel_locate; auto.
  - (* GoBack *)
    pose proof (detached_usable _ _ G) as U. apply Nat.leb_le in OK.
    destruct (r_it _ _ R k (usable_here _ _ U)) as (_ & Hix & Hca).
    destruct (stage_limit m a k R) as [L O]. destruct (window_bounds m a k R U) as [_ Whi].
    destruct (stage_window m a k R (usable_on _ _ U)) as [Wlo _]. pose proof (r_pos _ _ R) as Hl.
    apply refines_ret. rewrite (r_len _ _ R), Hix, wsub_mod by lia.
    apply rel_local_move; auto using detached_det; lia.
  - (* DReset *)
    apply Nat.leb_le in OK. rewrite (succ_eq m a k R).
    apply refines_ret, rel_locate; auto. apply Nat.mod_upper_bound. pose proof (r_pos _ _ R). lia.
  - (* DropBuf *)
    rewrite (idle_eq m a R).
    destruct (negb (sheap a) && negb (sfreed a) && a_no_iters a); [|apply refines_bad; auto].
    replace (release_evs (slots m)) with (release_evs (a_ring a)) by (rewrite (slots_ring m a R); reflexivity).
    apply refines_rete. destruct R. constructor; auto.
  - (* Resplit *)
    rewrite (idle_eq m a R).
    destruct (negb (sheap a) && negb (sfreed a) && a_no_iters a); [|apply refines_bad; auto].
    apply refines_ret. apply rel_split; auto.
Qed.

Theorem init_refines c :
  match init c, a_init c with
  | Some m, Some a => Rel m a
  | None, None => True
  | _, _ => False
  end.
Proof.
  unfold init, a_init. destruct (length (c_init c)) as [|n] eqn:E; auto.
  apply rel_intro.
  - repeat split; simpl; auto; try lia. destruct (c_worker c); reflexivity.
  - intros k. unfold SR. destruct k, (c_worker c); simpl; apply sr_init; auto; lia.
  - split; simpl; [exact E|]. intros p Hp. rewrite Nat.mod_small by lia. reflexivity.
Qed.

(** every contract-respecting history: same results, same ledger events, related final states *)
Theorem run_refines h : forall m a, Rel m a ->
  let '(a', ys, ok) := srun a h in
  ok = true -> let '(m', xs) := run m h in xs = ys /\ Rel m' a'.
Proof.
  induction h as [|o r IH]; intros m a R; simpl.
  - auto.
  - destruct (sstep a o) as [a1 y] eqn:Es.
    destruct (srun a1 r) as [[a2 ys] okr] eqn:Er.
    intros Hok. apply andb_prop in Hok as [Ho Hr].
    pose proof (step_refines m a o R Ho) as [E1 R1]. rewrite Es in *. simpl in *.
    destruct (step m o) as [m1 x] eqn:Em. simpl in *. subst y.
    specialize (IH m1 a1 R1). rewrite Er in IH. specialize (IH Hr).
    destruct (run m1 r) as [m2 xs]. destruct IH as [-> R2]. auto.
Qed.

Print Assumptions step_refines.
Print Assumptions run_refines.
Print Assumptions init_refines.
