(** * Facts about the functions the operations are made of: guarded operations, the tape, what is left alone. *)
From Coq Require Import List Arith NArith Lia.
Import ListNotations.
Require Import MRB.Base.ListAux MRB.Model.Types MRB.Model.Seq MRB.Spec.Pipe.

(** [grant], [grant_one], [push], [push_slice], [pop], [extract_item], [extract_slice] unfold to [guarded k n work no],
    their Spec versions to [a_guarded]: a lemma about these applies to them directly, [work] and [no] found by
    unification. *)
Definition guarded (k : stage) (n : nat) (work : mstate -> res) (no : out) (m : mstate) : res :=
  let '(g, m1) := check k n m in if g then work m1 else ret m1 no.
Definition a_guarded (k : stage) (n : nat) (work : ares) (no : out) (a : pipe) : ares :=
  if n <=? a_avail k a then work else a_ret a no.

(** a second look sees what the first saw *)
Lemma it_set_ca k c m : it_of k (set_ca k c m) = mkIter (ix (it_of k m)) c (det (it_of k m)) (here (it_of k m)).
Proof. apply tget_tset_same. Qed.
Lemma fresh_set_ca k c m : fresh k (set_ca k c m) = fresh k m.
Proof. destruct k; reflexivity. Qed.
Lemma set_ca_twice k c c' m : set_ca k c (set_ca k c' m) = set_ca k c m.
Proof. destruct k; reflexivity. Qed.

Lemma set_ca_same k m : set_ca k (ca (it_of k m)) m = m.
Proof. destruct m as [? ? ? ? [[] [] []]]; destruct k; reflexivity. Qed.

Lemma check_set_ca k n m : exists c, snd (check k n m) = set_ca k c m.
Proof.
  unfold check. destruct (n <=? ca (it_of k m)); [|eexists; reflexivity].
  exists (ca (it_of k m)). symmetry. apply set_ca_same.
Qed.

Lemma extend_length len n t : length (extend len n t) = length t + n.
Proof. revert t; induction n; intros; simpl; [lia|]. rewrite IHn, app_length; simpl; lia. Qed.

Lemma extend_old len n t q : q < length t -> nth q (extend len n t) 0%N = nth q t 0%N.
Proof.
  revert t; induction n; intros t H; simpl; auto.
  rewrite IHn by (rewrite app_length; simpl; lia). apply app_nth1; auto.
Qed.

Lemma extend_new len n t q : n <= len -> len <= length t ->
  length t <= q < length t + n -> nth q (extend len n t) 0%N = nth (q - len) t 0%N.
Proof.
  revert t q; induction n; intros t q Hn Ht Hq; simpl; [lia|].
  destruct (Nat.eq_dec q (length t)) as [->|Hne].
  - rewrite extend_old by (rewrite app_length; simpl; lia).
    rewrite app_nth2 by lia. rewrite Nat.sub_diag. reflexivity.
  - rewrite IHn; try (rewrite app_length; simpl); try lia.
    apply app_nth1. lia.
Qed.

Lemma sub_extend len k t p n : p + n <= length t -> sub (extend len k t) p n = sub t p n.
Proof.
  intros H. apply (nth_ext_d 0%N).
  - rewrite !sub_length; auto. rewrite extend_length. lia.
  - rewrite sub_length by (rewrite extend_length; lia). intros j Hj.
    rewrite !(nth_sub 0%N) by auto. apply extend_old. lia.
Qed.

Lemma extend_zero len t : extend len 0 t = t.
Proof. reflexivity. Qed.

Lemma a_rete_nil a o : a_rete a o [] = (a, (o, [])).
Proof. unfold a_rete, a_ev. destruct (sowned a); reflexivity. Qed.

Lemma grant_state k n a : fst (a_grant k n a) = a.
Proof. unfold a_grant. destruct (n <=? a_avail k a); reflexivity. Qed.

Lemma grant_one_state k a : fst (a_grant_one k a) = a.
Proof. unfold a_grant_one. destruct (1 <=? a_avail k a); reflexivity. Qed.

Lemma ids_length b n : length (ids b n) = n.
Proof. revert b; induction n; intros; simpl; auto. Qed.

(** the state differs in the clone counter only: every other field of the result is a field of [a] by conversion *)
Lemma a_set_nid_same a : a_set_nid (snid a) a = a.
Proof. destruct a; reflexivity. Qed.

Lemma a_clones_nid (cl : bool) a vs :
  exists news n, (if cl then a_clones a vs else (vs, a)) = (news, a_set_nid n a) /\ length news = length vs.
Proof.
  unfold a_clones. destruct cl; [destruct (sowned a)|].
  1: do 2 eexists; split; [reflexivity | apply ids_length].
  all: exists vs, (snid a); rewrite a_set_nid_same; auto.
Qed.

Definition same_cfg (a a' : pipe) : Prop :=
  slen a' = slen a /\ sowned a' = sowned a /\ shasW a' = shasW a /\ sdet a' = sdet a.

Lemma cfg_slen a a' : same_cfg a a' -> slen a' = slen a.      Proof. intros H; apply H. Qed.
Lemma cfg_owned a a' : same_cfg a a' -> sowned a' = sowned a.  Proof. intros H; apply H. Qed.
Lemma cfg_hasW a a' : same_cfg a a' -> shasW a' = shasW a.    Proof. intros H; apply H. Qed.
Lemma cfg_det a a' : same_cfg a a' -> sdet a' = sdet a.       Proof. intros H; apply H. Qed.

Lemma cfg_refl a : same_cfg a a.
Proof. repeat split. Qed.

Lemma cfg_advance k n a a0 : same_cfg a a0 -> same_cfg a (a_advance k n a0).
Proof. unfold a_advance. destruct (tget k (sdet a0)); exact (fun H => H). Qed.

Lemma cfg_push md v a : same_cfg a (fst (a_push md v a)).
Proof. unfold a_push. destruct (1 <=? a_avail P a); [apply cfg_advance|]; exact (cfg_refl a). Qed.

Lemma cfg_push_slice md cl vs a : same_cfg a (fst (a_push_slice md cl vs a)).
Proof.
  unfold a_push_slice. destruct (length vs <=? a_avail P a); [|apply cfg_refl].
  destruct (a_clones_nid cl a vs) as (news & n & -> & _). apply cfg_advance. exact (cfg_refl a).
Qed.

Lemma cfg_pop mv a : same_cfg a (fst (a_pop mv a)).
Proof. unfold a_pop. destruct (1 <=? a_avail C a); [destruct mv; apply cfg_advance|]; exact (cfg_refl a). Qed.

Lemma cfg_extract_item cl a : same_cfg a (fst (a_extract_item cl a)).
Proof.
  unfold a_extract_item. destruct (1 <=? a_avail C a); [|apply cfg_refl].
  destruct (a_clones_nid cl a [a_cell (tget C (lpos a)) a]) as (news & n & -> & _). apply cfg_advance. exact (cfg_refl a).
Qed.

Lemma cfg_extract_slice cl n a : same_cfg a (fst (a_extract_slice cl n a)).
Proof.
  unfold a_extract_slice. destruct (n <=? a_avail C a); [|apply cfg_refl].
  destruct (a_clones_nid cl a (sub (tape a) (tget C (lpos a)) n)) as (news & x & -> & _). apply cfg_advance. exact (cfg_refl a).
Qed.

Definition reshapes (o : op) : bool :=
  match o with Detach _ | Attach _ | DropIter _ | Resplit _ => true | _ => false end.

Lemma sstep_cfg a o : reshapes o = false -> same_cfg a (fst (sstep a o)).
Proof.
  intros H. destruct o; try discriminate; cbn [sstep];
    try (match goal with |- context[if ?g then _ else _] => destruct g end; [|exact (cfg_refl a)]);
    cbn [fst a_ret a_bad]; rewrite ?grant_state, ?grant_one_state;
    try exact (cfg_refl a);
    auto using cfg_advance, cfg_push, cfg_push_slice, cfg_pop, cfg_extract_item, cfg_extract_slice.
  - (* Advance *) apply cfg_advance. exact (cfg_refl a).
  - (* GetAvail *) destruct (a_avail k a); exact (cfg_refl a).
  - (* GetMult *) destruct r; [|destruct (a_avail k a - a_avail k a mod S r)]; exact (cfg_refl a).
  - (* Reset *) destruct k; try exact (cfg_refl a); destruct (a_attached _ a); exact (cfg_refl a).
Qed.

Lemma sstep_owned a o : sowned (fst (sstep a o)) = sowned a.
Proof.
  destruct (reshapes o) eqn:H; [|apply (sstep_cfg a o H)].
  destruct o; try discriminate; cbn [sstep]; match goal with |- context[if ?g then _ else _] => destruct g end; reflexivity.
Qed.

Lemma sub_nil {A} (l : list A) i : sub l i 0 = [].
Proof. reflexivity. Qed.

Lemma firstn_skipn_sub {A} (l : list A) i h n : h <= n ->
  firstn h (sub l i n) = sub l i h.
Proof. intros. unfold sub. rewrite firstn_firstn. f_equal. lia. Qed.

Lemma skipn_sub {A} (l : list A) i h n : h <= n ->
  skipn h (sub l i n) = sub l (i + h) (n - h).
Proof.
  intros. unfold sub. rewrite skipn_firstn_comm. f_equal. rewrite skipn_add. reflexivity.
Qed.
