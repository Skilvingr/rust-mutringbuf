(** * C13 (model level): heap and stack storage differ only in who releases the buffer. *)
From Coq Require Import Arith.
Require Import MRB.Base.Ring MRB.Model.Types MRB.Model.Seq MRB.Proofs.TapeFacts.

Definition with_heap (b : bool) (m : mstate) : mstate :=
  mkM (mlen m) (slots m) (pub m) (flag m) (its m) (hasW m) b (owned m) (freed m) (nid m).

Definition lifetime_op (o : op) : bool :=
  match o with DropIter _ | DropBuf | Resplit _ => true | _ => false end.

Definition lift (b : bool) (r : res) : res := (with_heap b (fst r), snd r).

Lemma owned_advance k n m : owned (advance k n m) = owned m.
Proof. unfold advance. destruct (det (it_of k m)); reflexivity. Qed.
Lemma owned_wr m i vs : owned (wr m i vs) = owned m.
Proof. unfold wr. destruct (chunk (mlen m) i (length vs)); reflexivity. Qed.

Section Heap.
Variable b : bool.

Lemma check_heap k n m : check k n (with_heap b m) = (fst (check k n m), with_heap b (snd (check k n m))).
Proof. unfold check, it_of. simpl. destruct (n <=? ca (tget k (its m))); reflexivity. Qed.
Lemma advance_heap k n m : advance k n (with_heap b m) = with_heap b (advance k n m).
Proof. unfold advance, it_of. simpl. destruct (det (tget k (its m))); reflexivity. Qed.
Lemma wr_heap m i vs : wr (with_heap b m) i vs = with_heap b (wr m i vs).
Proof. unfold wr. simpl. destruct (chunk (mlen m) i (length vs)); reflexivity. Qed.
Lemma clones_heap (cl : bool) m vs :
  (if cl then clones (with_heap b m) vs else (vs, with_heap b m)) =
  (fst (if cl then clones m vs else (vs, m)), with_heap b (snd (if cl then clones m vs else (vs, m)))).
Proof. destruct cl; [|reflexivity]. unfold clones. simpl. destruct (owned m); reflexivity. Qed.

(* readers and setters commute by computation *)
Ltac unheap m1 :=
  change (rd (with_heap b m1)) with (rd m1); change (slot (with_heap b m1)) with (slot m1);
  repeat change (it_of ?k (with_heap b m1)) with (it_of k m1);
  try change (set_slots ?sl (with_heap b m1)) with (with_heap b (set_slots sl m1)).

Lemma guarded_heap k n m no (work : mstate -> res) : (forall m1, work (with_heap b m1) = lift b (work m1)) ->
  guarded k n work no (with_heap b m) = lift b (guarded k n work no m).
Proof. intros H. unfold guarded. rewrite check_heap. destruct (check k n m) as [[] m1]; simpl; [apply H | reflexivity]. Qed.

Lemma grant_heap k n m : grant k n (with_heap b m) = lift b (grant k n m).
Proof.
  apply guarded_heap. intros m1. unheap m1. destruct (rd m1 (ix (it_of k m1)) n). reflexivity.
Qed.
Lemma grant_one_heap k m : grant_one k (with_heap b m) = lift b (grant_one k m).
Proof. apply guarded_heap. reflexivity. Qed.
Lemma push_heap md v m : push md v (with_heap b m) = lift b (push md v m).
Proof.
  apply guarded_heap. intros m1. unheap m1. rewrite advance_heap. reflexivity.
Qed.
Lemma pop_heap mv m : pop mv (with_heap b m) = lift b (pop mv m).
Proof.
  apply guarded_heap. intros m1. unheap m1. destruct mv; rewrite advance_heap; reflexivity.
Qed.
Lemma push_slice_heap md cl vs m : push_slice md cl vs (with_heap b m) = lift b (push_slice md cl vs m).
Proof.
  apply guarded_heap. intros m1.
  unheap m1. destruct (rd m1 (ix (it_of P m1)) (length vs)) as [h t].
  rewrite clones_heap. destruct (if cl then clones m1 vs else (vs, m1)) as [news m2]. cbn [fst snd].
  rewrite wr_heap, advance_heap. reflexivity.
Qed.
Lemma extract_item_heap cl m : extract_item cl (with_heap b m) = lift b (extract_item cl m).
Proof.
  apply guarded_heap. intros m1. unheap m1.
  rewrite clones_heap. destruct (if cl then clones m1 _ else _) as [news m2]. cbn [fst snd].
  rewrite advance_heap. reflexivity.
Qed.
Lemma extract_slice_heap cl n m : extract_slice cl n (with_heap b m) = lift b (extract_slice cl n m).
Proof.
  apply guarded_heap. intros m1.
  unheap m1. destruct (rd m1 (ix (it_of C m1)) n) as [h t].
  rewrite clones_heap. destruct (if cl then clones m1 _ else _) as [news m2]. cbn [fst snd].
  rewrite advance_heap. reflexivity.
Qed.
End Heap.

(** every operation except the lifetime ones behaves identically on heap and stack buffers *)
Theorem heap_irrelevant b m o : lifetime_op o = false -> step (with_heap b m) o = lift b (step m o).
Proof.
  intros L. destruct o; try discriminate; cbn [step];
    change (usable ?k (with_heap b m)) with (usable k m); change (attached ?k (with_heap b m)) with (attached k m);
    change (detached ?k (with_heap b m)) with (detached k m); change (plain (with_heap b m)) with (plain m);
    try (match goal with |- context[if ?c then _ else _] => destruct c eqn:? end; [|reflexivity]);
    rewrite ?grant_heap, ?grant_one_heap, ?push_heap, ?pop_heap, ?push_slice_heap, ?extract_item_heap, ?extract_slice_heap,
            ?advance_heap; try reflexivity.
  - (* GetAvail *)
    change (refresh k (with_heap b m)) with (with_heap b (fst (refresh k m)), snd (refresh k m)).
    destruct (refresh k m) as [m1 a]. simpl. destruct a; [reflexivity|]. apply grant_heap.
  - (* GetMult *)
    change (refresh k (with_heap b m)) with (with_heap b (fst (refresh k m)), snd (refresh k m)).
    destruct (refresh k m) as [m1 a]. simpl. destruct r; [reflexivity|].
    destruct (a - a mod S r); [reflexivity|]. apply grant_heap.
  - (* PeekAvail *)
    change (refresh C (with_heap b m)) with (with_heap b (fst (refresh C m)), snd (refresh C m)).
    destruct (refresh C m) as [m1 a]. simpl. apply grant_heap.
  - (* Reset *)
    destruct k; try reflexivity; change (attached ?k (with_heap b m)) with (attached k m);
      match goal with |- context[if ?c then _ else _] => destruct c eqn:? end; reflexivity.
Qed.
Print Assumptions heap_irrelevant.
