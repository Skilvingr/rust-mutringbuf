(** * Closing the concurrency theorems against an ordering profile *)
Require Import MRB.Model.Trace MRB.Conc.RA MRB.Conc.RAg MRB.Conc.RA3 MRB.Conc.RA3g MRB.Conc.Drop.

Lemma profile_ok_flags p : profile_ok p = true ->
  ge_acq (p_idx_load p) = true /\ ge_rel (p_idx_store p) = true /\ ge_acq (p_alive_rmw p) = true /\ ge_rel (p_alive_rmw p) = true.
Proof.
  unfold profile_ok. intros H. repeat (apply andb_prop in H as [H ?]). auto.
Qed.

(** data-race freedom of slot accesses, for every profile whose index loads are at least Acquire and stores at least Release:
    every length, every interleaving at atomic-access granularity, every admissible (stale) read *)
Theorem race_free_3stage p : profile_ok p = true -> forall len script, 0 < len ->
  race3 (gexec3 (ge_acq (p_idx_load p)) (ge_rel (p_idx_store p)) len (ginit3 len) script) = false.
Proof. intros H. destruct (profile_ok_flags p H) as (A & B & _). apply g3_race_free; auto. Qed.

Theorem race_free_2stage p : profile_ok p = true -> forall len script, 0 < len ->
  race (gexec (ge_acq (p_idx_load p)) (ge_rel (p_idx_store p)) len (ginit len) script) = false.
Proof. intros H. destruct (profile_ok_flags p H) as (A & B & _). apply g_race_free; auto. Qed.

(** the drop protocol under every profile with an acquire-release read-modify-write *)
Theorem drop_good p : profile_ok p = true -> forall script,
  good (mkB3 true true true) (dexec (ge_acq (p_alive_rmw p)) (ge_rel (p_alive_rmw p)) (mkB3 true true true) script) = true /\
  good (mkB3 true false true) (dexec (ge_acq (p_alive_rmw p)) (ge_rel (p_alive_rmw p)) (mkB3 true false true) script) = true.
Proof.
  intros H script. destruct (profile_ok_flags p H) as (_ & _ & A & B). rewrite A, B. split; [apply drop3_good | apply drop2_good].
Qed.
