(** * K-tie: the arithmetic kernels TRANSLATED FROM THE RUST SOURCE on every run (gen/Kernels.v) equal, for all inputs,
      the functions the Model and all the theorems are about - and never hit an undefined [unchecked_*] operation.
      Preconditions: indices below [len], and [2*len] (resp. [cached + len]) representable, which holds because a Rust
      allocation is at most [isize::MAX] bytes. *)
From Coq Require Import List Arith Lia.
Import ListNotations.
Require Import MRB.Base.Ring MRB.Model.Types MRB.Model.Seq MRB.Model.KernelM MRB.gen.Kernels.

Opaque usize_max.

(** [kt]: a kernel body down to the state functions of [KernelM] it is made of *)
Ltac kt := unfold run, bind, ret, get_index, get_cached, set_index, set_cached, publish, succ_index, buf_len, uadd, usub, ssub,
  orelse, geb, gtb; simpl.
(** robust finishers: the proofs below do not depend on HOW the source writes its arithmetic - every comparison of the goal is given
    its value where the hypotheses decide it and split with its specification where they do not, equalities of results are closed componentwise by [lia] (so [a - b - 1] and [a - (b + 1)], swapped
    branches, negated conditions ... all go through), contradictory branches by [lia] as well *)
Ltac eqm :=
  lazymatch goal with
  | |- Some _ = Some _ => apply f_equal; eqm
  | |- (_, _) = (_, _) => apply f_equal2; eqm
  | |- mkL _ _ = mkL _ _ => apply f_equal2; eqm
  | |- @eq nat _ _ => lia
  | |- cons _ _ = cons _ _ => apply f_equal2; eqm
  | |- _ => first [reflexivity | exfalso; lia]
  end.
Ltac split_cmp :=
  repeat (match goal with
  | |- context[?a <=? ?b] => first [bt (a <=? b) | bf (a <=? b) | destruct (Nat.leb_spec a b)]
  | |- context[?a <? ?b] => first [bt (a <? b) | bf (a <? b) | destruct (Nat.ltb_spec a b)]
  | |- context[?a =? ?b] => destruct (Nat.eqb_spec a b)
  | |- context[negb true] => cbn [negb]
  | |- context[negb false] => cbn [negb]
  end; cbn [fst snd l_index l_cached app andb orb negb]).
Ltac crunch := split_cmp; first [eqm | exfalso; lia].

Section Tie.
Variables (len succ ix ca : nat).
Hypothesis Hix : ix < len.
Hypothesis Hsucc : succ < len.
Hypothesis Hmax : len + len < usize_max.
Local Notation E := (mkE succ len).
Local Notation s := (mkL ix ca).

Theorem tie_prod_available : run (g_prod_available E) s = Some (pavail len ix succ, mkL ix (pavail len ix succ), []).
Proof.
  unfold g_prod_available, pavail. kt. crunch.
Qed.

Theorem tie_work_available : run (g_work_available E) s = Some (dist len ix succ, mkL ix (dist len ix succ), []).
Proof.
  unfold g_work_available, dist. kt. crunch.
Qed.

Theorem tie_cons_available : run (g_cons_available E) s = Some (dist len ix succ, mkL ix (dist len ix succ), []).
Proof.
  unfold g_cons_available, dist. kt. crunch.
Qed.

Theorem tie_advance_local n : n <= len ->
  run (g_advance_local E n) s = Some (tt, mkL (wadd len ix n) (ca - n), []).
Proof using Hix Hmax.
  intros Hn. clear Hsucc. unfold g_advance_local, wadd. kt. crunch.
Qed.

Theorem tie_advance n : n <= len ->
  run (g_advance E n) s = Some (tt, mkL (wadd len ix n) (ca - n), [wadd len ix n]).
Proof using Hix Hmax.
  intros Hn. pose proof (tie_advance_local n Hn) as T. unfold run in T.
  unfold g_advance, run, bind. rewrite T. reflexivity.
Qed.

(** [check]: the decision and the refreshed remembered availability, for any [_available] that answers [a] and remembers it *)
Lemma tie_check (avail : M nat) a n : run avail s = Some (a, mkL ix a, []) ->
  run (g_check E avail n) s = Some (if n <=? ca then true else n <=? a, if n <=? ca then s else mkL ix a, []).
Proof using.
  intros T. unfold run in T. unfold g_check, run, bind, get_cached, orelse, geb, ret. cbn [l_cached].
  destruct (n <=? ca); [reflexivity|]. rewrite T. reflexivity.
Qed.

Theorem tie_check_prod n :
  run (g_check E (g_prod_available E) n) s =
  Some (if n <=? ca then true else n <=? pavail len ix succ, if n <=? ca then s else mkL ix (pavail len ix succ), []).
Proof. exact (tie_check _ _ n tie_prod_available). Qed.

Theorem tie_check_cons n :
  run (g_check E (g_cons_available E) n) s =
  Some (if n <=? ca then true else n <=? dist len ix succ, if n <=? ca then s else mkL ix (dist len ix succ), []).
Proof. exact (tie_check _ _ n tie_cons_available). Qed.

Theorem tie_check_work n :
  run (g_check E (g_work_available E) n) s =
  Some (if n <=? ca then true else n <=? dist len ix succ, if n <=? ca then s else mkL ix (dist len ix succ), []).
Proof. exact (tie_check _ _ n tie_work_available). Qed.

Theorem tie_reset : run (g_cons_reset E) s = Some (tt, mkL succ 0, [succ]) /\ run (g_work_reset E) s = Some (tt, mkL succ 0, [succ]).
Proof. split; reflexivity. Qed.

Theorem tie_set_index i : run (g_set_index E i) s = Some (tt, mkL i 0, []).
Proof. reflexivity. Qed.
Theorem tie_dreset : run (g_dreset E) s = Some (tt, mkL succ 0, []).
Proof. reflexivity. Qed.
Theorem tie_sync : run (g_sync_index E) s = Some (tt, s, [ix]) /\ run (g_sync_index_async E) s = Some (tt, s, [ix]).
Proof. split; reflexivity. Qed.

(** [attach] (both wrappers): one publication of the local index, nothing else *)
Theorem tie_attach : run (g_attach E) s = Some (tt, s, [ix]) /\ run (g_attach_async E) s = Some (tt, s, [ix]).
Proof. split; reflexivity. Qed.

(** [go_back]: defined whenever the move stays within one lap, and then lands on [wsub] *)
Theorem tie_go_back n : n <= len -> ca + n < usize_max ->
  run (g_go_back E n) s = Some (tt, mkL (wsub len ix n) (ca + n), []) /\
  run (g_go_back_async E n) s = Some (tt, mkL (wsub len ix n) (ca + n), []).
Proof using Hix.
  intros Hn Hc. clear Hsucc Hmax. unfold g_go_back, g_go_back_async, wsub. kt. split; crunch.
Qed.

Theorem tie_dadvance n : n <= len ->
  run (g_dadvance E n) s = Some (tt, mkL (wadd len ix n) (ca - n), []) /\ run (g_dadvance_async E n) s = Some (tt, mkL (wadd len ix n) (ca - n), []).
Proof using Hix Hmax.
  intros Hn. pose proof (tie_advance_local n Hn) as T. unfold run in T.
  unfold g_dadvance, g_dadvance_async, run, bind. rewrite T. split; reflexivity.
Qed.

(** [next_chunk(_mut)]: the wrap condition and the slice lengths are [chunk] *)
Theorem tie_next_chunk n : n <= len ->
  let '(h, t) := chunk len ix n in
  exists w, run (g_next_chunk_cond E n) s = Some (w, s, []) /\ run (g_next_chunk_mut_cond E n) s = Some (w, s, []) /\
    (w = true -> run (g_next_chunk_head E n) s = Some (h, s, []) /\ run (g_next_chunk_tail E n) s = Some (t, s, []) /\
                 run (g_next_chunk_mut_head E n) s = Some (h, s, []) /\ run (g_next_chunk_mut_tail E n) s = Some (t, s, [])) /\
    (w = false -> run (g_next_chunk_nowrap E n) s = Some (h, s, []) /\ run (g_next_chunk_mut_nowrap E n) s = Some (h, s, []) /\ t = 0).
Proof using Hix Hmax.
  intros Hn. clear Hsucc. unfold chunk. destruct (len <=? ix + n) eqn:C; [apply Nat.leb_le in C | apply Nat.leb_gt in C].
  - exists true. unfold g_next_chunk_cond, g_next_chunk_mut_cond, g_next_chunk_head, g_next_chunk_tail, g_next_chunk_mut_head, g_next_chunk_mut_tail.
    repeat split; intros; try discriminate; kt; crunch.
  - exists false. unfold g_next_chunk_cond, g_next_chunk_mut_cond, g_next_chunk_nowrap, g_next_chunk_mut_nowrap.
    repeat split; intros; try discriminate; kt; first [lia | crunch].
Qed.
End Tie.

(** the Model's [check] is exactly the translated one (on the iterator-local state) *)
Theorem model_check_is_translated k n m :
  fst (check k n m) = (if n <=? ca (it_of k m) then true else n <=? fresh k m) /\
  ca (it_of k (snd (check k n m))) = (if n <=? ca (it_of k m) then ca (it_of k m) else fresh k m) /\
  ix (it_of k (snd (check k n m))) = ix (it_of k m).
Proof.
  unfold check, refresh. destruct (n <=? ca (it_of k m)); simpl; auto.
  unfold set_ca, it_of, set_it. simpl. rewrite tget_tset_same. simpl. auto.
Qed.

Theorem kernels_closed : Kernels.extractor_clean = true.
Proof. reflexivity. Qed.
