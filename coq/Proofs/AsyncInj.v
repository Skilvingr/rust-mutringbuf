(** * A poll with another stage acting during the waker registration ([Async.poll_inj]) - C15's "re-check after registration", C08 / C14
      on the branch of [MRBFuture::poll] no sequential history reaches (the SECOND attempt succeeds): [poll_inj] is what the source's
      [poll] does when the injected step runs inside [register_waker]; against the Spec it is the injected operation (if one was
      performed) followed by the polled one (if it resolved). *)
From Coq Require Import List.
Import ListNotations.
Require Import MRB.Model.Types MRB.Model.Seq MRB.Spec.Pipe MRB.Model.Async.
Require Import MRB.Proofs.Rel MRB.Proofs.Refine MRB.Proofs.AsyncFacts MRB.Proofs.AsyncRefine.
Require Import MRB.Model.PollShape.

Theorem poll_inj_is_source_shape k o d s :
  poll_inj_by_shape PollGen.poll_shape k o d s = Some (poll_inj k o d s).
Proof.
  unfold PollGen.poll_shape, poll_inj. cbn [poll_inj_by_shape run_entry_inj run_events_inj].
  destruct (step (base s) o) as [m1 [x1 e1]] eqn:E1. cbn [app].
  destruct (refused x1) eqn:R1; cbn [negb Bool.eqb].
  - destruct (astep (register k (set_base m1 s)) d) as [si [xi ei]] eqn:Ei.
    destruct (step (base si) o) as [m2 [x2 e2]] eqn:E2.
    destruct (refused x2) eqn:R2; cbn [negb Bool.eqb]; rewrite <- ?app_assoc; reflexivity.
  - reflexivity.
Qed.

Theorem poll_inj_ready k o d s : refused (fst (snd (step (base s) o))) = false ->
  poll_inj k o d s = (poll k o s, None).
Proof. unfold poll_inj, poll. destruct (step (base s) o) as [m1 [x1 e1]]. cbn [fst snd]. intros ->. reflexivity. Qed.

Section Inj.
Variables (s : astate) (k : stage) (o : op) (d : aop).
Hypothesis REF : refused (fst (snd (step (base s) o))) = true.

Let s1 := register k (set_base (fst (step (base s) o)) s).
Let si := fst (astep s1 d).

Lemma poll_inj_unfold :
  poll_inj k o d s =
  (set_base (fst (step (base si) o)) si,
   ((if refused (fst (snd (step (base si) o))) then OPending else fst (snd (step (base si) o))),
    snd (snd (step (base s) o)) ++ snd (snd (astep s1 d)) ++ snd (snd (step (base si) o))),
   Some (fst (snd (astep s1 d)))).
Proof.
  unfold poll_inj, si, s1. destruct (step (base s) o) as [m1 [x1 e1]]. cbn [fst snd] in *. rewrite REF.
  destruct (astep (register k (set_base m1 s)) d) as [sj [xi ei]]. cbn [fst snd].
  destruct (step (base sj) o) as [m2 [x2 e2]]. reflexivity.
Qed.

(** the registration precedes everything the other stage does *)
Theorem inj_registered_before : tget k (wk s1) = Some (task s).
Proof. unfold s1, register. cbn [wk]. apply tget_tset_same. Qed.

(** C15: no lost wake-up - what the other stage made possible during the registration is seen by the second attempt *)
Theorem inj_no_lost_wakeup : refused (fst (snd (step (base si) o))) = false ->
  snd (fst (poll_inj k o d s)) =
    (fst (snd (step (base si) o)), snd (snd (step (base s) o)) ++ snd (snd (astep s1 d)) ++ snd (snd (step (base si) o))) /\
  fst (snd (fst (poll_inj k o d s))) <> OPending.
Proof.
  intros H. rewrite poll_inj_unfold. cbn [fst snd]. rewrite H. split; [reflexivity|]. apply step_not_pending.
Qed.

Variable a : pipe.
Hypothesis R : Rel (base s) a.
Hypothesis F : future_of o = Some k.
Let g := performed s1 d.
Hypothesis OKg : forall f, g = Some f -> ok_op a f = true.
Let a1 := match g with Some f => fst (sstep a f) | None => a end.

Lemma first_attempt_silent : Rel (base s1) a /\ snd (snd (step (base s) o)) = [].
Proof.
  pose proof (future_ok a o k F) as OK.
  pose proof (step_refines _ _ o R OK) as [E R1].
  assert (Hs : refused (fst (snd (sstep a o))) = true) by (rewrite <- E; exact REF).
  pose proof (sstep_refused_same a o Hs) as Same.
  unfold s1. cbn [base register set_base]. rewrite Same in R1. cbn [fst] in R1. split; [exact R1|].
  rewrite E, Same. reflexivity.
Qed.

Lemma injected_sim : Rel (base si) a1 /\ snd (snd (astep s1 d)) = match g with Some f => snd (snd (sstep a f)) | None => [] end
  /\ (forall f, g = Some f -> fst (snd (astep s1 d)) = fst (snd (sstep a f))).
Proof.
  destruct first_attempt_silent as [R1 _]. unfold a1, si. subst g.
  destruct (performed s1 d) as [f|] eqn:Pf.
  - destruct (astep_performed s1 a d f R1 Pf (OKg f eq_refl)) as [R2 E]. rewrite E. split; [exact R2|]. split; [reflexivity|].
    intros f' H. inversion H; subst. reflexivity.
  - destruct (astep_silent s1 a d R1 Pf) as [R2 E]. split; [exact R2|]. split; [exact E|]. intros f H. discriminate.
Qed.

Theorem poll_inj_refines :
  let r := poll_inj k o d s in
  let x := fst (snd (fst r)) in
  refused x = false /\
  (visible x = true ->
     Rel (base (fst (fst r))) (fst (sstep a1 o)) /\ x = fst (snd (sstep a1 o)) /\
     snd (snd (fst r)) = (match g with Some f => snd (snd (sstep a f)) | None => [] end) ++ snd (snd (sstep a1 o))) /\
  (visible x = false ->
     Rel (base (fst (fst r))) a1 /\
     snd (snd (fst r)) = (match g with Some f => snd (snd (sstep a f)) | None => [] end)).
Proof.
  cbv zeta. rewrite poll_inj_unfold. cbn [fst snd base set_base].
  destruct first_attempt_silent as [_ E1]. destruct injected_sim as (R2 & E2 & _). rewrite E1, E2. cbn [app].
  pose proof (future_ok a1 o k F) as OK.
  pose proof (step_refines _ _ o R2 OK) as [E R3].
  destruct (refused (fst (snd (step (base si) o)))) eqn:Rf.
  -     assert (Hs : refused (fst (snd (sstep a1 o))) = true) by (rewrite <- E; exact Rf).
    pose proof (sstep_refused_same a1 o Hs) as Same.
    split; [reflexivity|]. split; [intros V; discriminate V|]. intros _.
    rewrite Same in R3. cbn [fst] in R3. split; [exact R3|]. rewrite E, Same. cbn [snd]. rewrite app_nil_r. reflexivity.
  - split; [exact Rf|]. split.
    + intros V. split; [exact R3|]. split; [rewrite E; reflexivity|]. rewrite E. reflexivity.
    + intros V. destruct (silent _ _ _ _ (step_sim _ a1 o R2) V) as [R4 ->]. rewrite app_nil_r. auto.
Qed.

End Inj.
