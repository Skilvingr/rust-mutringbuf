(** * C07 (sequential half), C10: bounded operations, publications are found *)
From Coq Require Import List Arith Bool Lia.
Import ListNotations.
Require Import MRB.Model.Types MRB.Model.Seq MRB.Spec.Pipe MRB.Model.Trace.
Require Import MRB.Proofs.Rel MRB.Proofs.Refine MRB.Proofs.SpecFacts.

Lemma loads_app a b : loads (a ++ b) = loads a + loads b.
Proof. unfold loads. rewrite filter_app, app_length. reflexivity. Qed.
Lemma stores_app a b : stores (a ++ b) = stores a + stores b.
Proof. unfold stores. rewrite filter_app, app_length. reflexivity. Qed.

(** every call but a drop or a re-split: a load of the index ahead, then a store of its own, at most *)
Definition light (t : list aev) : Prop := length t <= 2 /\ loads t <= 1 /\ stores t <= 1.

Lemma filter_le {A} (f : A -> bool) l : length (filter f l) <= length l.
Proof. induction l as [|x l IH]; simpl; [|destruct (f x); simpl]; lia. Qed.

Lemma light_app l s : length l <= 1 -> stores l = 0 -> length s <= 1 -> loads s = 0 -> light (l ++ s).
Proof.
  intros Hl Hs Hl' Hs'. unfold light. rewrite app_length, loads_app, stores_app, Hs, Hs'.
  pose proof (filter_le (fun e => match e with ELoad _ _ _ => true | _ => false end) l).
  pose proof (filter_le (fun e => match e with EStore _ _ _ => true | _ => false end) s).
  unfold loads, stores. lia.
Qed.

Lemma light_nil : light [].
Proof. apply (light_app [] []); auto. Qed.

Section Light.
Variable pr : profile.

Lemma check_load k n m : length (t_check pr k n m) <= 1 /\ stores (t_check pr k n m) = 0.
Proof. unfold t_check. destruct (n <=? ca (it_of k m)); auto. Qed.

Lemma pub_store k m : length (t_pub pr k m) <= 1 /\ loads (t_pub pr k m) = 0.
Proof. unfold t_pub. destruct (det (it_of k m)); auto. Qed.

Lemma light_fresh k m : light (t_fresh pr k m).
Proof. change (light (t_fresh pr k m ++ [])). apply light_app; auto. Qed.

Lemma light_check k n m : light (t_check pr k n m).
Proof. rewrite <- app_nil_r. apply light_app; auto; apply check_load. Qed.

Lemma light_pub k m : light (t_pub pr k m).
Proof. apply (light_app []); auto; apply pub_store. Qed.

Lemma light_request k n m b : light (t_request pr k n m b).
Proof.
  unfold t_request. destruct (check k n m) as [g m1].
  apply light_app; try apply check_load. all: destruct (g && b); auto; apply pub_store.
Qed.

Lemma light_own k v : light [st_own pr k v].
Proof. apply (light_app []); auto. Qed.

Lemma light_reset k m v : light (t_fresh pr k m ++ [st_own pr k v]).
Proof. apply light_app; auto. Qed.

Lemma trace_light m o : (forall k, o <> DropIter k) -> (forall w, o <> Resplit w) -> light (trace pr m o).
Proof.
  intros ND NR.
  destruct o; try (exfalso; eapply ND; reflexivity); try (exfalso; eapply NR; reflexivity); cbn [trace];
    try (destruct k); try match goal with |- light (if ?c then _ else _) => destruct c end;
    auto using light_nil, light_fresh, light_check, light_pub, light_request, light_own, light_reset.
Qed.
End Light.

Lemma drop_trace pr k m :
  length (t_drop pr k m) <= 4 /\ loads (t_drop pr k m) = 0 /\ stores (t_drop pr k m) = 0.
Proof.
  unfold t_drop. destruct (p_fence_before pr), (p_fence_after pr), (_ && heap m);
    repeat split; simpl; repeat constructor.
Qed.

(** at most six atomic accesses per call (re-split: 3 index stores + 3 liveness RMWs; drop: fence, RMW, fence, free),
    whatever the state, the arguments (slice length included) and the ordering profile: no operation waits *)
Theorem C10_bounded pr m o : length (trace pr m o) <= 6.
Proof.
  destruct o; try (apply Nat.le_trans with 2; [apply trace_light; discriminate | repeat constructor]); cbn [trace].
  - destruct (usable k m); [|apply Nat.le_0_l]. apply Nat.le_trans with 4; [apply drop_trace | repeat constructor].
  - destruct (_ && no_iters m); [destruct w|]; simpl; repeat constructor.
Qed.

(** one successor-index load and one own-index store at most *)
Theorem C10_one_load_one_store pr m o : (forall w, o <> Resplit w) -> loads (trace pr m o) <= 1 /\ stores (trace pr m o) <= 1.
Proof.
  intros NR. pose proof (fun ND => proj2 (trace_light pr m o ND NR)) as L.
  destruct o; try (apply L; discriminate).
  cbn [trace]. destruct (usable k m); [|split; apply Nat.le_0_l].
  destruct (drop_trace pr k m) as (_ & -> & ->). split; apply Nat.le_0_l.
Qed.

(** ** C10: publications are found (sequentially consistent runs: the next fresh look sees everything published) *)
Theorem C10_fresh_look_sees_all m a k : Rel m a -> a_usable k a = true ->
  fst (snd (step m (Avail k))) = ONum (a_avail k a).
Proof. apply C05_exact. Qed.

(** a retrying stage succeeds as soon as something has been released to it: the pipeline drains *)
Theorem C10_retry_succeeds m a : Rel m a -> a_attached C a = true -> 0 < a_avail C a ->
  exists v, fst (snd (step m Pop)) = OVal v.
Proof.
  intros R G H. pose proof (step_refines m a Pop R eq_refl) as [E _]. rewrite E. cbn [sstep]. rewrite G.
  unfold a_pop. replace (1 <=? a_avail C a) with true by (symmetry; apply Nat.leb_le; lia). simpl. eexists. reflexivity.
Qed.

(** each successful consumer step removes one item from the buffer: the number of items in flight is a decreasing
    measure for a draining pipeline *)
Theorem C10_pop_decreases m a v e m' : Rel m a -> a_attached C a = true ->
  step m Pop = (m', (OVal v, e)) -> in_flight (fst (sstep a Pop)) + 1 = in_flight a.
Proof.
  intros R G H. pose proof (step_refines m a Pop R eq_refl) as [E _]. rewrite H in E. simpl in E.
  cbn [sstep] in *. rewrite G in *. unfold a_pop in *.
  destruct (1 <=? a_avail C a) eqn:L; [apply Nat.leb_le in L|simpl in E; discriminate].
  pose proof (attached_det _ _ G) as D. simpl in D.
  simpl. unfold in_flight, a_advance. simpl. rewrite D. simpl.
  pose proof (r_att _ _ R C (attached_det _ _ G)) as A. simpl in A.
  pose proof (r_oC _ _ R). pose proof (r_oP _ _ R). pose proof (r_oS _ _ R). unfold a_avail, a_succ in *. simpl in *.
  destruct (shasW a); lia.
Qed.

(** ** C07, sequential half: the flag of a dropped iterator is cleared, the others are untouched, and a heap buffer is
    released exactly by the drop that clears the last flag; iterators never release a stack buffer *)
Theorem C07_seq_drop m k :
  let m' := fst (drop_iter k m) in
  tget k (flag m') = false /\ (forall j, j <> k -> tget j (flag m') = tget j (flag m)) /\
  here (it_of k m') = false /\
  (freed m' = (freed m || (negb (tP (flag m')) && negb (tW (flag m')) && negb (tC (flag m')) && heap m))) /\
  (heap m = false -> freed m' = freed m) /\ slots m' = slots m /\ pub m' = pub m.
Proof.
  unfold drop_iter, rete. simpl. unfold it_of. simpl. rewrite !tget_tset_same.
  repeat match goal with |- _ /\ _ => split end; auto.
  - intros j Hj. apply tget_tset_other; auto.
  - intros ->. rewrite !andb_false_r, orb_false_r. reflexivity.
Qed.
